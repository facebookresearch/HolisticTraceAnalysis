(* C14 property theorems: queue-length and memory-bandwidth counters are exact step functions. *)
From Coq Require Import Permutation.
From HTA.lib Require Import ListExtra Base Sweep.
From HTA.model Require Import C14_Model.
From HTA.gen Require Import KernelRules_gen LaunchNames_gen CounterRules_gen.
From HTA.proof Require Import KernelRulesTie C14_Proofs.
From HTA.proof Require Import Scale C14_Scale.
Open Scope list_scope.
Open Scope Z_scope.

(* rows = the +1 (launch) / -1 (activity start) rows of the linked pairs P of one stream; rows' = ANY time-sorted
   permutation (pandas' sort is unstable). After the last row x of an instant the running sum equals
   (launch calls issued up to that instant) - (their activities started up to that instant). *)
Theorem C14_queue_value_at_instant : forall P rows' pre x post,
  Permutation (from_pairs P) rows' -> rows' = pre ++ x :: post -> sorted_time rows' ->
  (forall y, In y post -> fst x < fst y) ->
  sumZ (map snd (pre ++ [x])) =
  count (fun p => fst p <=? fst x) P - count (fun p => snd p <=? fst x) P.
Proof.
  intros P rows' pre x post Hp E Hs Hpost.
  rewrite (value_at_instant (from_pairs P) rows' pre x post Hp E Hs Hpost). apply level_from_pairs.
Qed.
Print Assumptions C14_queue_value_at_instant.

(* no row of the series is negative when no activity starts before its launch call and, inside an instant, launch
   rows precede start rows (sorted refined times) *)
Theorem C14_queue_nonneg : forall P rows',
  Permutation (from_pairs P) rows' -> (forall p, In p P -> fst p <= snd p) ->
  sorted_time (map refine rows') -> forall v, In v (psums 0 rows') -> 0 <= v.
Proof.
  intros P rows' Hp Hc. apply (prefix_sums_nonneg (from_pairs P)); [exact Hp | |].
  - intro w. apply level_from_pairs_nonneg, Hc.
  - intros y Hy. destruct (from_pairs_pm1 P y Hy); lia.
Qed.
Print Assumptions C14_queue_nonneg.

(* the model's (and, after the fix, the code's) sort key (ts ascending, queue descending) is such an order *)
Theorem C14_sort_puts_launches_first : forall l, pm1 l ->
  Permutation l (sort_q l) /\ sorted_time (map (fun y => refine (rowz y)) (sort_q l)).
Proof.
  intros l H. split; [exact (isort_perm insert_q_ok l)|].
  apply StronglySorted_map, (isort_sorted insert_q_ok).
  - intros x y z. apply Z.le_trans.
  - apply ForallPairs_ForallOrdPairs. intros x y Hx Hy. apply q_lt_refine; apply H; assumption.
Qed.
Print Assumptions C14_sort_puts_launches_first.

Theorem C14_series_is_prefix_sums : forall acc l, map snd (cumsum acc l) = psums acc (map rowz l).
Proof. intros acc l. revert acc. induction l as [|x l IH]; intro acc; cbn [cumsum map psums]; [|rewrite IH]; reflexivity. Qed.
Print Assumptions C14_series_is_prefix_sums.

Theorem C14_queue_ends_zero : forall P rows', Permutation (from_pairs P) rows' -> rows' <> [] -> last (psums 0 rows') 0 = 0.
Proof.
  intros P rows' Hp Hne. rewrite psums_last by exact Hne.
  rewrite <- (sumZ_perm _ _ (Permutation_map snd Hp)), from_pairs_paired. apply paired_rows_sum.
Qed.
Print Assumptions C14_queue_ends_zero.

Theorem C14_queue_row_count : forall P rows', Permutation (from_pairs P) rows' ->
  List.length (psums 0 rows') = (2 * List.length P)%nat.
Proof.
  intros P rows' Hp. rewrite psums_length, <- (Permutation_length Hp). unfold from_pairs.
  rewrite app_length, !map_length. cbn [Nat.mul]. rewrite Nat.add_0_r. reflexivity.
Qed.
Print Assumptions C14_queue_row_count.

(* bandwidth of a copy type after the last row of an instant = sum of the bandwidths of the copies active then
   (C: (start, end, bw) with start < end, i.e. after the zero-length -> one-unit rule) *)
Theorem C14_bw_value_at_instant : forall C rows' pre x post,
  (forall c, In c C -> fst (fst c) < snd (fst c)) ->
  Permutation (copy_rows C) rows' -> rows' = pre ++ x :: post -> sorted_time rows' ->
  (forall y, In y post -> fst x < fst y) ->
  sumZ (map snd (pre ++ [x])) = active_bw C (fst x).
Proof.
  intros C rows' pre x post Hc Hp E Hs Hpost.
  rewrite (value_at_instant (copy_rows C) rows' pre x post Hp E Hs Hpost). apply level_copy_rows, Hc.
Qed.
Print Assumptions C14_bw_value_at_instant.

Theorem C14_bw_nonneg_at_instants : forall C t, (forall c, In c C -> 0 <= snd c) -> 0 <= active_bw C t.
Proof.
  intros C t H. apply sumZ_nonneg. intros c Hc. specialize (H c Hc).
  destruct ((fst (fst c) <=? t) && (t <? snd (fst c))); lia.
Qed.
Print Assumptions C14_bw_nonneg_at_instants.

Theorem C14_counter_events_unshift : forall c ts_file, (ts_file - c) + c = ts_file.
Proof. intros c ts_file. lia. Qed.
Print Assumptions C14_counter_events_unshift.

(* non-vacuity: two launches in instant 1, the first kernel starting at the very timestamp of its launch call *)
Definition ex14 : list ev :=
  [ mkEv 0 0 1 1 1 (-1) (-1) (-1) (-1) "aten::zeros" "cpu_op";
    mkEv 1 1 0 1 1 (-1) 5 2 (-1) "cudaLaunchKernel" "cuda_runtime";
    mkEv 2 1 2 0 7 7 5 1 (-1) "gemm" "kernel";
    mkEv 3 1 1 1 1 (-1) 6 4 (-1) "cudaMemcpyAsync" "cuda_runtime";
    mkEv 4 3 0 0 7 7 6 3 (-1) "Memcpy DtoH (Device -> Pinned)" "gpu_memcpy";
    mkEv 5 9 1 0 7 7 7 0 (-1) "orphan" "kernel" ].
Example C14_nonvacuous :
  map (fun t => snd (fst t)) (encode_queue ex14) = [[[1; 1]; [1; 2]; [1; 1]; [3; 0]]] /\
  encode_bw ["Memcpy DtoH"] (map (fun e => (e, 10)) ex14) = [(0, [[3; 10]; [4; 0]])].
Proof. vm_compute. split; reflexivity. Qed.

(* the tie by regeneration: the kernel classification of the model is the chain GENERATED from the current source (get_kernel_type, the codes of
   KernelType, the three regex wrappers; the regular expressions themselves are compared literally on every run) *)
Theorem C14_kernel_types_follow_source : forall n,
  ktype_code (get_kernel_type n) = kernel_type_gen (is_comm_kernel n) (is_memory_kernel n) (is_compute_kernel n).
Proof. exact kernel_type_is_generated. Qed.
Print Assumptions C14_kernel_types_follow_source.

(* and the copy-type label of a memory activity is the one get_memory_kernel_type, GENERATED from the source, returns *)
Theorem C14_memory_types_follow_source : forall n, mem_type n = mem_type_gen n.
Proof. exact mem_type_is_generated. Qed.
Print Assumptions C14_memory_types_follow_source.

(* which host calls count as launches: the names (and the positive-link condition) read out of get_runtime_launch_events_query *)
Theorem C14_launch_names_follow_source : launch_names = launch_names_gen /\ (forall e, is_launch e = str_in (name e) launch_names_gen && (0 <? icorr e)).
Proof. split; [exact launch_names_are_generated | intro e; unfold is_launch; rewrite launch_names_are_generated; reflexivity]. Qed.
Print Assumptions C14_launch_names_follow_source.

(* resolution independence of the queue-length series: times multiplied by k > 0 give the same rows in the same order with the
   same counts, at k times the instants; the set of streams is unchanged.  (The bandwidth series is not homogeneous: the 1 us floor
   of zero-length copies is an absolute constant, see C14_Scale.v.) *)
Theorem C14_queue_resolution_independent : forall k l s, 0 < k ->
  stream_series (scale_evs k l) s = map (fun p => (sq k (fst p), snd p)) (stream_series l s) /\
  streams_of (scale_evs k l) = streams_of l.
Proof. intros k l s Hk. split; [apply stream_series_scale, Hk | apply streams_of_scale]. Qed.
Print Assumptions C14_queue_resolution_independent.

(* the tie by regeneration, second part: the +1 of a launch and the -1 of a device activity, the test that makes a row a device row,
   the order of rows inside one instant (launches first) and the 1 us floor of a zero-length copy are those READ from
   TraceCounters._get_queue_length_time_series_for_rank / _get_memory_bw_time_series_for_rank, whose statement sequence the
   translator accepts in exactly one shape *)
Theorem C14_rules_follow_source : forall l,
  (forall x y, q_lt x y = queue_before_gen (q_ts x) (q_delta x) (q_ts y) (q_delta y)) /\
  dev_rows l = filter (fun e => is_dev_queue_gen (stream e)) l /\
  Forall (fun r => q_delta r = launch_delta_gen) (launch_rows l) /\
  Forall (fun r => q_delta r = kernel_delta_gen) (kernel_rows l) /\
  (forall e, dur1 e = bw_dur_gen (dur e)) /\
  (forall e, is_mem e = true -> is_dev_bw_gen (stream e) = true).
Proof.
  intros l. repeat split.
  - unfold launch_rows. apply Forall_forall. intros r Hr. apply in_flat_map in Hr. destruct Hr as [x [_ Hx]].
    apply in_map_iff in Hx. destruct Hx as [k [Hk _]]. subst r. reflexivity.
  - unfold kernel_rows. apply Forall_forall. intros r Hr. apply in_map_iff in Hr. destruct Hr as [k [Hk _]]. subst r. reflexivity.
  - intros e H. unfold is_mem in H. apply andb_true_iff in H. exact (proj1 H).
Qed.
Print Assumptions C14_rules_follow_source.
