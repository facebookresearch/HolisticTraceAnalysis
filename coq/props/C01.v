(* C01 property theorems: loaded events are a faithful, uniformly time-shifted image of the file. *)
From Coq Require Import QArith Qround Sorted.
From HTA.lib Require Import Base.
From HTA.model Require Import Loader_Model.
From HTA.gen Require Import Rounding_gen.
From HTA.proof Require Import Loader_Proofs C12_Proofs.
Open Scope Z_scope.

(* rows <-> complete entries, identified by their position in traceEvents, in increasing order, none twice *)
Theorem C01_rows_bijection : forall f,
  (forall e, In e (parse_file f) <->
     exists k r, nth_error f k = Some r /\ complete r = true /\ e = to_ev (Z.of_nat k) r) /\
  StronglySorted Z.lt (map idx (parse_file f)) /\ NoDup (map idx (parse_file f)).
Proof.
  intro f. split; [|split].
  - intro e. exact (parse_from_spec f 0 e).
  - apply parse_from_sorted.
  - apply parse_from_ids_unique.
Qed.
Print Assumptions C01_rows_bijection.

(* entries without a duration or category, and the profiler's own 'Trace' span, never appear *)
Theorem C01_no_incomplete_row : forall f e, In e (parse_file f) ->
  exists k r d c, nth_error f k = Some r /\ idx e = Z.of_nat k /\ r_dur r = Some d /\ r_cat r = Some c /\ c <> "Trace"%string.
Proof.
  intros f e H. apply (parse_from_spec f 0) in H. destruct H as [k [r [Hn [Hc He]]]].
  unfold complete in Hc. destruct (r_dur r) as [d|] eqn:D; [|discriminate].
  destruct (r_cat r) as [c|] eqn:C; [|discriminate].
  exists k, r, d, c. subst e. simpl. repeat split; auto.
  intro E. subst c. simpl in Hc. discriminate.
Qed.
Print Assumptions C01_no_incomplete_row.

Theorem C01_fields : forall i r,
  let e := to_ev i r in
  idx e = i /\ ts e = r_ts r /\ pid e = r_pid r /\ tid e = r_tid r /\ name e = r_name r /\
  (forall d, r_dur r = Some d -> dur e = d) /\ (forall c, r_cat r = Some c -> cat e = c) /\
  stream e = match r_stream r with Some s => s | None => -1 end /\
  corr e = match r_corr r with Some c => c | None => -1 end.
Proof. exact fields. Qed.
Print Assumptions C01_fields.

(* linking and iteration assignment leave every primary column alone *)
Theorem C01_primary_columns_kept : forall f, map primary (parse_rank f) = map primary (parse_file f).
Proof. intro f. apply parse_rank_map; reflexivity. Qed.
Print Assumptions C01_primary_columns_kept.

(* one constant for all ranks, equal to the global minimum; no negative start; the earliest row at 0 *)
Theorem C01_shift_uniform : forall ranks : list (list ev),
  let c := global_min ranks in
  align ranks = map (map (shift c)) ranks /\
  (forall l e, In l ranks -> In e l -> c <= ts e /\ ts (shift c e) = ts e - c /\ 0 <= ts (shift c e)) /\
  (List.concat ranks <> [] -> exists l e, In l ranks /\ In e l /\ ts (shift c e) = 0).
Proof.
  intro ranks. cbv zeta. split; [reflexivity|]. split.
  - intros l e Hl He. pose proof (global_min_le ranks l e Hl He). unfold shift, set_ts. cbn [ts]. lia.
  - intro Hne. destruct (global_min_attained ranks Hne) as [l [e [Hl [He E]]]].
    exists l, e. repeat split; auto. unfold shift, set_ts. cbn [ts]. lia.
Qed.
Print Assumptions C01_shift_uniform.

Theorem C01_end_is_ts_plus_dur : forall c e,
  eend (shift c e) = ts (shift c e) + dur (shift c e) /\ eend (shift c e) = eend e - c /\ dur (shift c e) = dur e.
Proof. intros c e. unfold eend, shift. simpl. lia. Qed.
Print Assumptions C01_end_is_ts_plus_dur.

(* after a full load every row of rank j is a parsed row of file j shifted by the one constant *)
Theorem C01_load_rows : forall incl files j e,
  In e (nth j (load incl files) []) ->
  exists e0, In e0 (nth j (map parse_rank files) []) /\ e = shift (global_min (map parse_rank files)) e0.
Proof.
  intros incl files j e H. rewrite load_nth in H. apply trim_incl in H.
  apply in_map_iff in H. destruct H as [e0 [He He0]].
  exists e0. split; [|symmetry; exact He]. rewrite <- (map_nth parse_rank) in He0. exact He0.
Qed.
Print Assumptions C01_load_rows.

(* exactly ONE row per complete event also after a full load, for any file set and any event mix: every row id (= position in the
   file) occurs at most once in every rank -- with C01_load_rows, the loaded rows are an injective image of the parsed rows.  (Before
   1af5ed4 a device row was repeated once per extra kept host row carrying its correlation id.) *)
Theorem C01_load_ids_unique : forall incl files j, NoDup (map idx (nth j (load incl files) [])).
Proof.
  intros incl files j. rewrite load_nth. apply trim_map_no_dup.
  rewrite map_map. change (fun x => idx (shift _ x)) with idx.
  rewrite parse_rank_map by reflexivity. apply parse_from_ids_unique.
Qed.
Print Assumptions C01_load_ids_unique.

(* fractional timestamps, for all rationals: the rounding the theorems below speak of is the one regenerated from round_down_time_stamps on every run: ceil for the start,
   floor for the end, duration = their difference, behind exactly two guards (float64 ts column, option not disabling it) *)
Theorem C01_rounding_follows_source : forall t e : Q,
  round_event t e = round_event_gen t e /\ round_ts t = round_ts_gen t /\ round_end e = round_end_gen e.
Proof. intros t e. repeat split. Qed.
Print Assumptions C01_rounding_follows_source.

Theorem C01_round_inward : forall t e : Q,
  (t <= inject_Z (round_ts t))%Q /\ (inject_Z (round_end e) <= e)%Q.
Proof. exact round_inward. Qed.
Print Assumptions C01_round_inward.

Theorem C01_round_preserves_containment : forall tA eA tB eB : Q,
  (tA <= tB)%Q -> (eB <= eA)%Q -> round_ts tA <= round_ts tB /\ round_end eB <= round_end eA.
Proof. intros tA eA tB eB H1 H2. split; [apply Qceiling_resp_le | apply Qfloor_resp_le]; assumption. Qed.
Print Assumptions C01_round_preserves_containment.

Theorem C01_round_preserves_disjointness : forall eA tB : Q, (eA <= tB)%Q -> round_end eA <= round_ts tB.
Proof.
  intros eA tB H. destruct (round_inward tB eA) as [Ht He]. rewrite Zle_Qle.
  eapply Qle_trans; [exact He|]. eapply Qle_trans; [exact H | exact Ht].
Qed.
Print Assumptions C01_round_preserves_disjointness.

(* non-vacuity: metadata, flow and 'Trace' entries dropped; defaults; two ranks; the constant is 1000 *)
Definition f0 : list raw :=
  [ mkRaw (Some 2) (Some "cpu_op") 1005 1 1 None None "aten::zeros";
    mkRaw None None 0 1 0 None None "process_name";
    mkRaw (Some 3) (Some "cuda_runtime") 1006 1 1 None (Some 7) "cudaLaunchKernel";
    mkRaw (Some 50) (Some "Trace") 1000 0 0 None None "PyTorch Profiler (0)";
    mkRaw None (Some "ac2g") 1006 1 1 None None "ac2g";
    mkRaw (Some 4) (Some "kernel") 1010 0 7 (Some 7) (Some 7) "gemm" ].
Definition f1 : list raw :=
  [ mkRaw (Some 1) (Some "cpu_op") 1000 1 1 None None "aten::zeros" ].
Example C01_nonvacuous :
  encode_load ["aten::zeros"; "cpu_op"; "cuda_runtime"; "cudaLaunchKernel"; "gemm"; "kernel"] false [f0; f1] =
  (1000, [ [[0; 5; 2; 1; 1; -1; -1; -1; -1; 0; 1]; [2; 6; 3; 1; 1; -1; 7; 5; -1; 3; 2]; [5; 10; 4; 0; 7; 7; 7; 2; -1; 4; 5]];
           [[0; 0; 1; 1; 1; -1; -1; -1; -1; 0; 1]] ]).
Proof. vm_compute. reflexivity. Qed.
Example C01_round_nonvacuous : encode_round [(Qmake 3 2, Qmake 7 2); (Qmake 5 1, Qmake 11 2)] = [[2; 1]; [5; 0]].
Proof. vm_compute. reflexivity. Qed.
