(* C20 property theorems: files written by the tool preserve every source event. *)
From HTA.lib Require Import Base.
From HTA.model Require Import C08_Model C20_Model.
From HTA.gen Require Import OverlayRules_gen.
From HTA.proof Require Import C20_Proofs.
Open Scope Z_scope.

(* (1) the trace with counters: the source events come first, unchanged and in order; everything after them is the counter events *)
Theorem C20_counters_preserve : forall (A : Type) (src ctr : list A),
  firstn (List.length src) (with_counters src ctr) = src /\ skipn (List.length src) (with_counters src ctr) = ctr.
Proof.
  intros A src ctr. unfold with_counters. split.
  - rewrite firstn_app, Nat.sub_diag, firstn_all. apply app_nil_r.
  - rewrite skipn_app, Nat.sub_diag, skipn_all. reflexivity.
Qed.
Print Assumptions C20_counters_preserve.

(* (2) the overlay with all events kept, for every option combination and every graph: the file is the source events, each at
   its own position and identical up to the critical marker, followed by flow events only *)
Theorem C20_overlay_preserves_events : forall sa zw src crit N cp all,
  exists flows,
    overlay false sa zw src crit N cp all = map ISrc (mark_all crit 0 src) ++ map IFlow flows /\
    List.length (mark_all crit 0 src) = List.length src /\
    map clear_crit (mark_all crit 0 src) = map clear_crit src /\
    (forall k e, nth_error src k = Some e ->
       exists e', nth_error (overlay false sa zw src crit N cp all) k = Some (ISrc e') /\
                  clear_crit e' = clear_crit e /\ w_crit e' = memZ (Z.of_nat k) crit || w_crit e).
Proof.
  intros sa zw src crit N cp all. eexists.
  split; [apply overlay_keep_all|]. split; [apply mark_all_length|]. split; [apply mark_all_clear|].
  intros k e H. exists (mark crit (Z.of_nat k) e).
  split; [apply overlay_nth_src, H|]. split; [apply clear_mark | apply crit_mark].
Qed.
Print Assumptions C20_overlay_preserves_events.

Theorem C20_overlay_tail_is_flow : forall sa zw src crit N cp all k x,
  (List.length src <= k)%nat -> nth_error (overlay false sa zw src crit N cp all) k = Some x -> exists f, x = IFlow f.
Proof.
  intros sa zw src crit N cp all k x Hk H. rewrite overlay_keep_all in H.
  rewrite nth_error_app2 in H by (rewrite map_length, mark_all_length; exact Hk).
  rewrite nth_error_map in H. destruct (nth_error _ _) as [f|]; [|discriminate]. injection H as <-. exists f. reflexivity.
Qed.
Print Assumptions C20_overlay_tail_is_flow.

(* the marked events are exactly the critical path's events (for a source without markers) *)
Theorem C20_overlay_marks_exact : forall sa zw src crit N cp all,
  forallb (fun e => negb (w_crit e)) src = true ->
  forall k e, nth_error src k = Some e ->
    exists e', nth_error (overlay false sa zw src crit N cp all) k = Some (ISrc e') /\
               (w_crit e' = true <-> memZ (Z.of_nat k) crit = true).
Proof.
  intros sa zw src crit N cp all Hun k e H. exists (mark crit (Z.of_nat k) e). split; [apply overlay_nth_src, H|].
  rewrite forallb_forall in Hun. specialize (Hun e (nth_error_In _ _ H)).
  rewrite crit_mark. destruct (w_crit e); [discriminate|]. rewrite orb_false_r. tauto.
Qed.
Print Assumptions C20_overlay_marks_exact.

Theorem C20_drawn_edges : forall oc sa zw cp all e,
  In e (drawn_edges oc sa zw cp all) <->
  (if sa && negb oc then In e all /\ (zw = true \/ zero_launch e = false) else In e cp).
Proof.
  intros oc sa zw cp all e. unfold drawn_edges. destruct (sa && negb oc); [|tauto]. rewrite filter_In.
  destruct zw; simpl; [tauto|]. destruct (zero_launch e); simpl; intuition congruence.
Qed.
Print Assumptions C20_drawn_edges.

(* ... and that rule is the one regenerated from the source on every run: _is_zero_weight_launch_edge, the override of show_all_edges
   by only_show_critical_events, the edge selection *)
Theorem C20_drawn_edges_follow_source : forall oc sa zw cp all e,
  zero_launch e = zero_launch_gen (g_ty e) (g_w e) /\
  drawn_edges oc sa zw cp all =
    (if draws_all_gen oc sa then filter (fun e => drawn_member_gen zw (g_ty e) (g_w e)) all else cp).
Proof.
  intros oc sa zw cp all e. split; [reflexivity|].
  unfold drawn_edges, draws_all_gen. destruct oc, sa; reflexivity.
Qed.
Print Assumptions C20_drawn_edges_follow_source.

(* one pair of flow events per drawn edge: the k-th edge yields the events 2k (start) and 2k+1 (end), both with id k, on the
   process and thread of the source events at the edge's two end points; there are no other flow events *)
Theorem C20_flow_pairs : forall src N cp drawn,
  forallb (edge_wf src N) drawn = true ->
  List.length (flows_from src N cp 0 drawn) = (2 * List.length drawn)%nat /\
  (forall k e, nth_error drawn k = Some e ->
     exists nu eu nv ev_, edge_events src N e = Some (nu, eu, nv, ev_) /\
       nth_error (flows_from src N cp 0 drawn) (2 * k) =
         Some (mkF true (0 + Z.of_nat k) (w_pid eu) (w_tid eu) (flow_ts nu eu) (g_ty e) (g_w e) (on_cp cp e)) /\
       nth_error (flows_from src N cp 0 drawn) (2 * k + 1) =
         Some (mkF false (0 + Z.of_nat k) (w_pid ev_) (w_tid ev_) (flow_ts nv ev_) (g_ty e) (g_w e) (on_cp cp e))) /\
  (forall j f, nth_error (flows_from src N cp 0 drawn) j = Some f -> f_id f = 0 + Z.of_nat (j / 2) /\ f_start f = Nat.even j).
Proof. intros src N cp drawn. apply flows_spec. Qed.
Print Assumptions C20_flow_pairs.

(* (3) rank update: the events are untouched, every other top-level key keeps its value and place, every other field of
   distributedInfo keeps its value, the rank is the one given; the last update wins *)
Theorem C20_update_rank : forall d r,
  d_events (update_rank d r) = d_events d /\
  (forall k, k <> "distributedInfo"%string -> lookup_key k (d_keys (update_rank d r)) = lookup_key k (d_keys d)) /\
  map fst (d_keys (update_rank d r)) = map fst (d_keys d) ++ (if has_key "distributedInfo" (d_keys d) then [] else ["distributedInfo"%string]) /\
  (info_wf d -> doc_rank (update_rank d r) = Some r) /\
  (forall f k, get_info (d_keys d) = Some f -> k <> "rank"%string ->
     exists f', get_info (d_keys (update_rank d r)) = Some f' /\ get_field k f' = get_field k f) /\
  (forall r', update_rank (update_rank d r) r' = update_rank d r').
Proof.
  intros [l ev] r. unfold update_rank, info_wf, doc_rank. cbn [d_keys d_events].
  destruct (has_key "distributedInfo" l) eqn:E; cbn [d_keys d_events].
  - (* the key is there: its value is updated in place *)
    split; [reflexivity|]. split; [|split; [|split; [|split]]].
    + intros k Hk. rewrite lookup_upd_info. destruct (String.eqb_spec "distributedInfo" k); [congruence | reflexivity].
    + rewrite upd_info_keys, app_nil_r. reflexivity.
    + intros Hwf. destruct (Hwf eq_refl) as [f Hf]. rewrite get_info_upd, Hf. cbn [option_map].
      rewrite get_set_field, String.eqb_refl. reflexivity.
    + intros f k Hf Hk. exists (set_field "rank" r f). rewrite get_info_upd, Hf, get_set_field.
      destruct (String.eqb_spec "rank" k); [congruence | auto].
    + intro r'. rewrite has_key_upd, E, upd_info_twice. reflexivity.
  - (* the key is missing: it is appended with the rank as its only field *)
    assert (E' : lookup_key "distributedInfo" l = None).
    { rewrite has_key_lookup in E. destruct (lookup_key _ l); [discriminate | reflexivity]. }
    split; [reflexivity|]. split; [|split; [|split; [|split]]].
    + intros k Hk. rewrite lookup_key_app. destruct (lookup_key k l); [reflexivity|]. cbn [lookup_key].
      destruct (String.eqb_spec "distributedInfo" k); [congruence | reflexivity].
    + apply map_app.
    + intros _. rewrite get_info_lookup, lookup_key_app, E'. reflexivity.
    + intros f k Hf. apply get_info_has_key in Hf. congruence.
    + intro r'. rewrite has_key_lookup, lookup_key_app, E', upd_info_app, E. reflexivity.
Qed.
Print Assumptions C20_update_rank.

(* writer / reader, both formats, under the codec round-trip hypothesis (json + gzip are runtime behaviour) *)
Theorem C20_write_read : forall (bytes : Type) (enc : bool -> doc -> bytes) (dec : bool -> bytes -> option doc),
  (forall gz d, dec gz (enc gz d) = Some d) ->
  forall gz d r,
    read_file bytes dec gz (write_file bytes enc gz d) = Some d /\
    exists b, update_file bytes enc dec gz (write_file bytes enc gz d) r = Some b /\ read_file bytes dec gz b = Some (update_rank d r).
Proof. intros bytes enc dec Hrt gz d r. split; [apply read_write; exact Hrt | apply update_file_spec; exact Hrt]. Qed.
Print Assumptions C20_write_read.

(* (4) rank discovery: in general the last file showing a rank is stored for it and nothing else is stored; when the first
   "rank" occurrence of every file is its metadata rank and the ranks are distinct, discovery is exactly the metadata map *)
Theorem C20_discovery : forall (files : list (Z * Z * list Z)),
  (forall f, In f files -> hd_error (snd f) = Some (snd (fst f))) ->
  NoDup (map (fun f => snd (fst f)) files) ->
  (forall f, In f files -> getm (discover (map (fun f => (fst (fst f), snd f)) files)) (snd (fst f)) = Some (fst (fst f))) /\
  (forall r p, getm (discover (map (fun f => (fst (fst f), snd f)) files)) r = Some p ->
     exists f, In f files /\ fst (fst f) = p /\ snd (fst f) = r).
Proof.
  intros files Hfirst Hnd. set (fs := map (fun f => (fst (fst f), snd f)) files).
  assert (Hr : forall f, In f files -> file_rank (snd f) = snd (fst f)).
  { intros f Hf. apply file_rank_hd, Hfirst, Hf. }
  split.
  - intros f Hf. rewrite <- (Hr f Hf). apply (discover_unique fs) with (f := (fst (fst f), snd f)).
    + unfold fs. rewrite map_map. cbn [snd]. rewrite (map_ext_in _ _ _ Hr). exact Hnd.
    + apply in_map_iff. exists f. auto.
  - intros r p H. destruct (discover_only_files fs r p H) as (g & Hg & Hp & Hrk).
    apply in_map_iff in Hg. destruct Hg as (f & <- & Hf). exists f. rewrite <- (Hr f Hf). auto.
Qed.
Print Assumptions C20_discovery.

Theorem C20_discovery_last_wins : forall files r, getm (discover files) r = last_with r files None.
Proof. exact discover_last. Qed.
Print Assumptions C20_discovery_last_wins.

(* non-vacuity: a three-event source, event 1 critical, one drawn edge from event 0 (start) to event 1 (end, on the device) *)
Example C20_nonvacuous :
  let src := [mkW 10 1 1 0 5 false true false false; mkW 11 0 7 2 4 true true false false; mkW 12 1 1 9 1 false false false false] in
  let N := [mkN 0 0 0 true false; mkN 1 1 6 false false] in
  let e := mkE 0 1 6 2 in
  encode_overlay false false false src [1] N [e] [e] =
  (true, [[0; 10; 0]; [0; 11; 1]; [0; 12; 0]; [1; 1; 0; 1; 1; 0; 2; 6; 1]; [1; 0; 0; 0; 7; 5; 2; 6; 1]]).
Proof. vm_compute. reflexivity. Qed.

Example C20_nonvacuous_discovery :
  getm (discover [(100, [3; 9]); (101, []); (102, [1])]) 3 = Some 100 /\ getm (discover [(100, [3; 9]); (101, []); (102, [1])]) 0 = Some 101.
Proof. vm_compute. split; reflexivity. Qed.

Example C20_nonvacuous_update :
  encode_doc (update_rank (mkDoc [("schemaVersion"%string, JTok 1); ("distributedInfo"%string, JInfo [("backend"%string, 5); ("rank"%string, 0)])] [1; 2; 3]) 4) =
  ([("schemaVersion"%string, [(""%string, 1)]); ("distributedInfo"%string, [("backend"%string, 5); ("rank"%string, 4)])], [1; 2; 3]).
Proof. vm_compute. reflexivity. Qed.
