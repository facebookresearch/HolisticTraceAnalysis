(* C09 property theorems: the reported critical path is a maximum-weight path of the graph. *)
From HTA.lib Require Import Base Dag.
From HTA.model Require Import C08_Model.
From HTA.gen Require Import PathSets_gen.
From HTA.proof Require Import C08_Proofs.
Open Scope Z_scope.

(* a potential function valid on every edge bounds the weight of EVERY path (any number of nodes and edges) *)
Theorem C09_potential_bounds_all_paths : forall G dist M p,
  potential_ok G dist -> (forall v, dist v <= M) -> is_path G p -> path_weight p <= M.
Proof. exact optimum_bound. Qed.
Print Assumptions C09_potential_bounds_all_paths.

(* what the checker's first three answers mean: the reported node list is a path and no path of the graph weighs more *)
Theorem C09_check_sound : forall W order cp p,
  potential_okb W (dp W order) = true -> path_edges W cp = Some p -> p <> [] ->
  path_weight p = max_value (dp W order) ->
  is_path W p /\ forall q, is_path W q -> path_weight q <= path_weight p.
Proof.
  intros W order cp p Hpot Hp Hne Hw. split; [apply (path_edges_spec W cp p Hp Hne)|].
  intros q Hq. rewrite Hw. apply (optimum_bound W (alookup (dp W order))); [apply potential_okb_sound, Hpot | apply alookup_le_max | exact Hq].
Qed.
Print Assumptions C09_check_sound.

Theorem C09_le_makespan : forall G tsf p lo hi,
  (forall e, In e G -> e_w e <= tsf (e_dst e) - tsf (e_src e)) -> (forall v, lo <= tsf v <= hi) ->
  is_path G p -> path_weight p <= hi - lo.
Proof.
  intros G tsf p lo hi Hw Hb Hp. pose proof (path_le_span G tsf p Hw Hp) as H.
  pose proof (Hb (path_end (path_start p) p)). pose proof (Hb (path_start p)). lia.
Qed.
Print Assumptions C09_le_makespan.

(* the makespan clause for EVERY path of an accepted graph (in particular for whichever maximum-weight path is reported) *)
Theorem C09_makespan_guaranteed : forall N W p, span_okb N W = true -> is_path W p ->
  path_weight p <= maxZ 0 (map c_ts N) - minZ 0 (map c_ts N).
Proof.
  intros N W p Hs Hp. set (lo := minZ 0 (map c_ts N)). set (hi := maxZ 0 (map c_ts N)).
  (* a node id that names no node is given the time lo, so that every id has a time within [lo, hi] *)
  apply (C09_le_makespan W (fun v => match find_node N v with Some n => c_ts n | None => lo end) p); [| |exact Hp].
  - unfold span_okb in Hs. rewrite forallb_forall in Hs. intros e He. specialize (Hs e He).
    destruct (find_node N (e_src e)); [|discriminate]. destruct (find_node N (e_dst e)); [|discriminate]. apply Z.leb_le, Hs.
  - intro v. destruct (find_node N v) as [n|] eqn:En.
    + apply find_node_in in En. split; [apply minZ_le | apply maxZ_ge]; exact En.
    + split; [lia|]. subst lo hi. destruct N as [|n N']; [cbn; lia|].
      transitivity (c_ts n); [apply minZ_le | apply maxZ_ge]; left; reflexivity.
Qed.
Print Assumptions C09_makespan_guaranteed.

Theorem C09_reported_path_is_a_path : forall G nodes p, path_edges G nodes = Some p -> p <> [] ->
  is_path G p /\ path_start p = hd 0 nodes.
Proof. exact path_edges_spec. Qed.
Print Assumptions C09_reported_path_is_a_path.

(* non-vacuity: a diamond with a heavier lower branch *)
Definition g09 : list edge := [mkEdge 0 1 2; mkEdge 1 3 2; mkEdge 0 2 1; mkEdge 2 3 5; mkEdge 3 4 0].
Definition n09 : list cpnode := [mkN 0 10 0 true false; mkN 1 11 2 true false; mkN 2 12 1 true false; mkN 3 10 6 false false; mkN 4 11 9 false false].
Example C09_nonvacuous : check_C09 n09 g09 [0; 1; 2; 3; 4] [0; 2; 3; 4] [[0; 2]; [2; 3]; [3; 4]] [10; 11; 12] = [true; true; true; true; true; true; true].
Proof. vm_compute. reflexivity. Qed.

(* the sets the checker compares the reported edge and event sets with are built the way CPGraph.critical_path builds them, read from
   the source on every run (strict statement-by-statement reading: the events set is REBUILT and the edge set RESET on every call) *)
Theorem C09_path_sets_follow_source : forall (N : list cpnode) (p : list Z),
  pairs_of p = path_pairs_gen p /\
  flat_map (fun i => match find_node N i with Some n => [c_ev n] | None => [-7] end) p =
    path_events_gen (fun i => match find_node N i with Some n => [c_ev n] | None => [-7] end) p.
Proof.
  intros N p. split; [|reflexivity]. destruct p as [|a q]; [reflexivity|]. revert a.
  induction q as [|b r IH]; intro a; [reflexivity|]. exact (f_equal (cons [a; b]) (IH b)).
Qed.
Print Assumptions C09_path_sets_follow_source.
