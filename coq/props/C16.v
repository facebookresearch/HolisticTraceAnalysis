(* C16 property theorems: frequent kernel sequences count exactly the kernels launched under each operator. *)
From Coq Require Import Permutation.
From HTA.lib Require Import ListExtra Base.
From HTA.model Require Import C16_Model.
From HTA.proof Require Import C16_More.
From HTA.proof Require Import Scale C16_Scale.
Open Scope Z_scope.

Theorem C16_counts_and_durations : forall is,
  NoDup (map (fun r => fst (fst (fst r))) (patterns is)) /\
  (forall p, In p (map (fun r => fst (fst (fst r))) (patterns is)) <-> exists i, In i is /\ i_pat i = p) /\
  (forall p c g u, In (p, c, g, u) (patterns is) ->
     c = Z.of_nat (List.length (filter (fun i => list_eqb (i_pat i) p) is)) /\
     g = sumZ (map i_gpu (filter (fun i => list_eqb (i_pat i) p) is)) /\
     u = sumZ (map i_cpu (filter (fun i => list_eqb (i_pat i) p) is)) /\ 0 < c).
Proof.
  intro is. unfold patterns. rewrite map_map. cbn [fst]. rewrite map_id. split; [apply dedup_p_NoDup|]. split.
  - intro p. rewrite dedup_p_In, in_map_iff. split; intros [i [H1 H2]]; exists i; tauto.
  - intros p c g u H. apply in_map_iff in H. destruct H as [p' [E Hp]]. inversion E; subst. repeat split.
    (* the count is positive: the pattern is that of some instance *)
    apply dedup_p_In, in_map_iff in Hp. destruct Hp as [i [Hi Hin]].
    apply count_pos. exists i. split; [exact Hin | apply list_eqb_eq, Hi].
Qed.
Print Assumptions C16_counts_and_durations.

Theorem C16_pattern_in_start_order : forall l, Sorted.StronglySorted (fun a b => ts a <= ts b) (sort_k l).
Proof. intro l. apply (isort_key_sorted ts insert_k_ok). Qed.
Print Assumptions C16_pattern_in_start_order.

Theorem C16_pattern_equality_decided : forall a b, list_eqb a b = true <-> a = b.
Proof. exact list_eqb_eq. Qed.
Print Assumptions C16_pattern_equality_decided.

(* non-vacuity: aten::linear at depth 0 (two kernels a, b under it through aten::mm) twice, and once nested (not counted) *)
Definition f16 : list ev :=
  [ mkEv 0 0 20 1 5 (-1) (-1) (-1) (-1) "aten::linear" "cpu_op";
    mkEv 1 1 10 1 5 (-1) (-1) (-1) (-1) "aten::mm" "cpu_op";
    mkEv 2 2 1 1 5 (-1) 7 6 (-1) "cudaLaunchKernel" "cuda_runtime";
    mkEv 3 4 1 1 5 (-1) 8 7 (-1) "cudaLaunchKernel" "cuda_runtime";
    mkEv 4 12 5 1 5 (-1) (-1) (-1) (-1) "aten::linear" "cpu_op";
    mkEv 5 30 9 1 5 (-1) (-1) (-1) (-1) "aten::linear" "cpu_op";
    mkEv 6 6 2 0 7 7 7 2 (-1) "a" "kernel";
    mkEv 7 9 3 0 7 7 8 3 (-1) "b" "kernel";
    mkEv 8 31 1 1 5 (-1) 9 9 (-1) "cudaLaunchKernel" "cuda_runtime";
    mkEv 9 33 2 0 7 7 9 8 (-1) "a" "kernel" ].
Example C16_nonvacuous : encode_C16 ["a"; "aten::linear"; "b"] f16 "aten::linear" 1 = [[1; 2; 9; 1; 0]; [1; 5; 20; 1; 0; 2]].
Proof. vm_compute. reflexivity. Qed.

(* resolution independence: times multiplied by k > 0 give the same patterns with the same counts, and k times the GPU and CPU
   durations *)
Theorem C16_resolution_independent : forall k l op minlen, 0 < k ->
  patterns (instances (scale_evs k l) op minlen) = map (spat k) (patterns (instances l op minlen)).
Proof. intros k l op minlen Hk. rewrite instances_scale by exact Hk. apply patterns_scale. Qed.
Print Assumptions C16_resolution_independent.

(* which instances are considered: exactly the rows whose name matches, at the shallowest depth at which the name occurs, that launch
   at least minlen device activities -- in trace order, each turned into the instance of its own subtree (inst_of) *)
Theorem C16_instances_exact : forall l op minlen,
  exists sel, instances l op minlen = map (inst_of l) sel /\
    (forall e, In e sel <->
       In e (cands l op) /\ (forall c, In c (cands l op) -> depth16 l e <= depth16 l c) /\ minlen <= nk16 l e) /\
    (exists keep, sel = filter keep (cands l op)).
Proof.
  intros l op minlen. rewrite instances_chosen. destruct (cands l op) as [|c0 cs].
  - exists []. split; [reflexivity|]. split; [|exists (fun _ => true); reflexivity]. intro e. simpl. tauto.
  - set (dmin := minZ (depth16 l c0) (map (depth16 l) (c0 :: cs))).
    exists (filter (fun e => (depth16 l e =? dmin) && (minlen <=? nk16 l e)) (c0 :: cs)). split; [reflexivity|].
    split; [|eexists; reflexivity]. intro e. rewrite filter_In, andb_true_iff, Z.eqb_eq, Z.leb_le.
    split; intros [Hin [Hd Hn]]; (split; [exact Hin|]; split; [|exact Hn]); apply (minZ_arg_iff (depth16 l) (depth16 l c0) _ e Hin), Hd.
Qed.
Print Assumptions C16_instances_exact.

(* the sort that puts the device activities beneath an instance in start order only rearranges them: the pattern (inst_of) names each once *)
Theorem C16_pattern_is_rearrangement : forall l, Permutation.Permutation (sort_k l) l.
Proof. intro l. apply Permutation_sym, (isort_perm insert_k_ok). Qed.
Print Assumptions C16_pattern_is_rearrangement.

(* conservation over the whole table: every instance is counted in exactly one row, so the counts add up to the number of instances
   and the two duration columns to the instances' totals *)
Theorem C16_table_conserves : forall is,
  sumZ (map (fun r => snd (fst (fst r))) (patterns is)) = Z.of_nat (List.length is) /\
  sumZ (map (fun r => snd (fst r)) (patterns is)) = sumZ (map i_gpu is) /\
  sumZ (map (fun r => snd r) (patterns is)) = sumZ (map i_cpu is).
Proof.
  intro is. unfold patterns. rewrite !map_map. cbn [fst snd]. unfold pat_count, pat_gpu, pat_cpu, count.
  pose proof (dedup_p_NoDup (map i_pat is)) as Hnd.
  assert (Hall : forall i, In i is -> In (i_pat i) (dedup_p (map i_pat is))) by (intros i Hi; apply dedup_p_In, in_map, Hi).
  repeat split.
  - rewrite length_sumZ, <- (sum_by_key list_eqb i_pat (fun _ => 1) _ is list_eqb_eq Hnd Hall).
    f_equal. apply map_ext. intro p. apply length_sumZ.
  - exact (sum_by_key list_eqb i_pat i_gpu _ is list_eqb_eq Hnd Hall).
  - exact (sum_by_key list_eqb i_pat i_cpu _ is list_eqb_eq Hnd Hall).
Qed.
Print Assumptions C16_table_conserves.
