(* C18 property theorems: trace filters are pure row selections with the documented predicates. *)
From HTA.lib Require Import Base ListExtra Regex.
From HTA.model Require Import C18_Model.
From HTA.gen Require Import FilterRules_gen.
From HTA.proof Require Import C18_Proofs.
Open Scope Z_scope.

(* every filter, composites included, returns a subsequence of its input (rows, order, contents kept) *)
Theorem C18_sublist : forall wt tab f l, sublist (apply wt tab f l) l.
Proof.
  intros wt tab f. induction f using flt_ind'; intro l; try apply filter_sublist.
  rewrite apply_composite. revert l.
  induction H as [|g r Hg Hr IH]; intro l; cbn [fold_left]; [apply sublist_refl|].
  eapply sublist_trans; [apply IH | apply Hg].
Qed.
Print Assumptions C18_sublist.

Theorem C18_exact_selection : forall wt tab f l x,
  (forall fs, f <> FComposite fs) -> (In x (apply wt tab f l) <-> In x l /\ pred wt tab f l x = true).
Proof. intros wt tab f l x H. rewrite apply_atomic by exact H. apply filter_In. Qed.
Print Assumptions C18_exact_selection.

Theorem C18_documented_predicates : forall wt tab l x,
  let e := fst x in
  (forall its, pred wt tab (FIter its) l x = true <-> In (iter e) its) /\
  (forall rs, pred wt tab (FRank rs) l x = true <-> In (snd x) rs) /\
  (forall lo hi, pred wt tab (FTime lo hi) l x = true <-> lo <= ts e /\ ts e + dur e <= hi) /\
  (forall pat, pred wt tab (FName pat) l x = true <-> exists s1 s2, name e = (s1 ++ s2)%string /\ matches pat s1) /\
  (pred true tab FGpu l x = is_dev e) /\ (pred true tab FCpu l x = negb (is_dev e)).
Proof.
  intros wt tab l x. cbv zeta. split; [intro its; apply memZ_In|]. split; [intro rs; apply memZ_In|].
  split; [intros lo hi; cbn [pred]; rewrite andb_true_iff, !Z.leb_le; reflexivity|].
  split; [intro pat; apply match_prefix_spec|]. split; reflexivity.
Qed.
Print Assumptions C18_documented_predicates.

Theorem C18_composite_sequential : forall wt tab fs l,
  apply wt tab (FComposite fs) l = fold_left (fun acc f => apply wt tab f acc) fs l.
Proof. exact apply_composite. Qed.
Print Assumptions C18_composite_sequential.

Theorem C18_rowlocal_commute : forall wt tab f g l, rowlocal f = true -> rowlocal g = true ->
  apply wt tab f (apply wt tab g l) = apply wt tab g (apply wt tab f l).
Proof.
  intros wt tab f g l Hf Hg. rewrite !(rowlocal_is_filter wt tab f Hf), !(rowlocal_is_filter wt tab g Hg).
  apply filter_comm.
Qed.
Print Assumptions C18_rowlocal_commute.

Theorem C18_rowlocal_idempotent : forall wt tab f l, rowlocal f = true ->
  apply wt tab f (apply wt tab f l) = apply wt tab f l.
Proof. intros wt tab f l Hf. rewrite !(rowlocal_is_filter wt tab f Hf). apply filter_idem. Qed.
Print Assumptions C18_rowlocal_idempotent.

Theorem C18_rowlocal_intersection : forall wt tab f g l x, rowlocal f = true -> rowlocal g = true ->
  (In x (apply wt tab (FComposite [f; g]) l) <-> In x (apply wt tab f l) /\ In x (apply wt tab g l)).
Proof.
  intros wt tab f g l x Hf Hg. rewrite apply_composite. cbn [fold_left].
  rewrite !(rowlocal_is_filter wt tab f Hf), !(rowlocal_is_filter wt tab g Hg), !filter_In. tauto.
Qed.
Print Assumptions C18_rowlocal_intersection.

(* the regex matcher used by the name filter decides prefix membership in the pattern's language *)
Theorem C18_regex_prefix_match : forall s r,
  match_prefix r s = true <-> exists s1 s2, s = (s1 ++ s2)%string /\ matches r s1.
Proof. exact match_prefix_spec. Qed.
Print Assumptions C18_regex_prefix_match.

Definition fr18 : frame :=
  [ (mkEv 0 0 5 1 1 (-1) (-1) (-1) 3 "aten::add" "cpu_op", 0);
    (mkEv 1 1 2 1 1 (-1) 7 2 3 "cudaLaunchKernel" "cuda_runtime", 0);
    (mkEv 2 4 3 0 7 7 7 1 3 "ncclKernel_AllReduce" "kernel", 0);
    (mkEv 3 9 1 1 1 (-1) (-1) (-1) 4 "aten::mul" "cpu_op", 1);
    (mkEv 4 9 0 0 0 (-1) 8 0 (-1) "Context Sync" "cuda_sync", 1) ].
Example C18_nonvacuous :
  encode_C18 true ["aten::add"] [FIterIdx [1]; FName (Cat (Lit "aten::") (Star Any)); FCpu; FComposite [FTime 0 8; FGpu]; FIter [-1; 4]] fr18
  = [[3]; [0; 3]; [0; 1; 3]; [2]; [3; 4]].
Proof. vm_compute. reflexivity. Qed.

Lemma is_dev_is_generated e : is_dev e = dev_pred_table_gen e.
Proof.
  unfold is_dev, dev_pred_table_gen, str_in. cbn [existsb]. rewrite !Z.geb_leb, orb_false_r, orb_assoc. reflexivity.
Qed.

(* the tie by regeneration: the time-range, device-row and host-row predicates of the model are the masks read out of TimeRangeFilter,
   _filter_gpu_kernels_with_cuda_sync, GPUKernelFilter and CPUOperatorFilter (with and without a symbol table) *)
Theorem C18_predicates_follow_source : forall with_tab tab l x,
  (forall lo hi, pred with_tab tab (FTime lo hi) l x = time_pred_gen lo hi (fst x)) /\
  pred with_tab tab FGpu l x = (if with_tab then xorb gpu_table_negated_gen (dev_pred_table_gen (fst x)) else gpu_pred_notable_gen (fst x)) /\
  pred with_tab tab FCpu l x = (if with_tab then xorb cpu_table_negated_gen (dev_pred_table_gen (fst x)) else cpu_pred_notable_gen (fst x)).
Proof.
  intros with_tab tab l x. split; [intros lo hi; reflexivity|]. cbn [pred]. unfold is_host. rewrite is_dev_is_generated.
  unfold gpu_table_negated_gen, cpu_table_negated_gen, gpu_pred_notable_gen, cpu_pred_notable_gen. rewrite !Z.geb_leb.
  split; destruct with_tab; cbn [xorb]; try reflexivity.
  destruct (dev_pred_table_gen (fst x)); reflexivity.
Qed.
Print Assumptions C18_predicates_follow_source.
