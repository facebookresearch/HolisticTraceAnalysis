(* C06 property theorems: idle-time breakdown = gaps between stream-consecutive kernels, classified by rule. *)
From Coq Require Import Permutation Sorted.
From HTA.lib Require Import Base ListExtra.
From HTA.model Require Import C06_Model.
From HTA.proof Require Import C06_Proofs.
From HTA.gen Require Import IdleRules_gen.
From HTA.proof Require Import Scale C06_Scale.
(* nothing below uses it: it is loaded so that every build of this file, hence every run of the C06 check, re-proves that the sort keys
   read from the source are (ts, end_ts) *)
From HTA.proof Require Import C06_RulesTie.
Open Scope Z_scope.

Theorem C06_gaps_are_consecutive : forall l d prev ks, map snd (walk l d prev ks) = consecutive_gaps prev ks.
Proof. exact gaps_are_consecutive. Qed.
Print Assumptions C06_gaps_are_consecutive.

(* the stream's kernels are handled in start order: the sort returns a start-ordered permutation *)
Theorem C06_start_order : forall l, Permutation l (sort_ev l) /\ StronglySorted (fun a b => ts a <= ts b) (sort_ev l).
Proof.
  intro l. split; [apply (isort_perm insert_ev_ok)|].
  apply (StronglySorted_impl lex_le); [|apply sort_ev_lex]. unfold lex_le. intros a b. lia.
Qed.
Print Assumptions C06_start_order.

Theorem C06_ties_by_end : forall l, StronglySorted lex_le (sort_ev l).
Proof. exact sort_ev_lex. Qed.
Print Assumptions C06_ties_by_end.

Theorem C06_gaps_nonneg : forall prev ks, chain ks -> (forall k r, ks = k :: r -> prev <= ts k) ->
  Forall (fun g => 0 <= g) (consecutive_gaps prev ks).
Proof.
  intros prev ks Hc. revert prev. induction Hc as [|k Hk|a b r Ha Hab Hc IH]; intros prev Hp; simpl.
  - constructor.
  - constructor; [specialize (Hp k [] eq_refl); lia | constructor].
  - constructor; [specialize (Hp a (b :: r) eq_refl); lia|].
    apply IH. intros k r' E. inversion E; subst. exact Hab.
Qed.
Print Assumptions C06_gaps_nonneg.

Theorem C06_classification : forall d rt prev gap,
  let c := classify d rt prev gap in
  (c = 0 <-> exists r, rt = Some r /\ prev < r) /\
  (c = 1 <-> ~ (exists r, rt = Some r /\ prev < r) /\ gap < d) /\
  (c = 2 <-> ~ (exists r, rt = Some r /\ prev < r) /\ d <= gap) /\
  (c = 0 \/ c = 1 \/ c = 2).
Proof. exact classification. Qed.
Print Assumptions C06_classification.

(* the 'launch call' of the rule is the row the kernel is positively linked to, nothing else *)
Theorem C06_launch_call : forall l k r, ts_runtime l k = Some r ->
  0 < icorr k /\ exists c, In c l /\ idx c = icorr k /\ ts c = r.
Proof.
  intros l k r. unfold ts_runtime. destruct (0 <? icorr k) eqn:E; [|discriminate].
  destruct (find (fun r0 => idx r0 =? icorr k) l) as [c|] eqn:F; [|discriminate].
  cbn [option_map]. intros [= <-]. apply find_some in F. destruct F as [Hin Hi].
  split; [lia|]. exists c. repeat split; [exact Hin | lia].
Qed.
Print Assumptions C06_launch_call.

(* a stream's categories add up to its span minus its busy time *)
Theorem C06_telescope : forall l d k r,
  let gs := gaps_sorted l d (k :: r) in
  cat_sum 0 gs + cat_sum 1 gs + cat_sum 2 gs = (eend (last (k :: r) k) - ts k) - sumZ (map dur (k :: r)).
Proof.
  intros l d k r. cbv zeta. unfold gaps_sorted. rewrite walk_total.
  rewrite <- (last_map eend (k :: r) k). cbn [map]. rewrite last_cons, sumZ_cons.
  assert (E : eend k = ts k + dur k) by reflexivity. lia.
Qed.
Print Assumptions C06_telescope.

Theorem C06_last_ends_last : forall ks k0, chain ks -> forall k, In k ks -> eend k <= eend (last ks k0).
Proof.
  intros ks k0 Hc. induction Hc as [|k1 Hk|a b r Ha Hab Hc IH]; intros k Hin.
  - destruct Hin.
  - destruct Hin as [Hin|[]]; subst; simpl; lia.
  - change (last (a :: b :: r) k0) with (last (b :: r) k0). destruct Hin as [Hin|Hin]; [|apply IH; exact Hin].
    subst. specialize (IH b (or_introl eq_refl)).
    assert (0 <= dur b) by (inversion Hc; assumption). unfold eend in *. lia.
Qed.
Print Assumptions C06_last_ends_last.

(* non-vacuity: launch after the previous kernel ended (host_wait 6), short gap (kernel_wait 1), long gap (other 10),
   an unlinked kernel after a zero-length one *)
Definition ex06 : list ev :=
  [ mkEv 0 40 1 1 1 (-1) (-1) (-1) (-1) "aten::zeros" "cpu_op";
    mkEv 1 0 1 1 1 (-1) 1 2 (-1) "cudaLaunchKernel" "cuda_runtime";
    mkEv 2 2 3 0 7 7 1 1 (-1) "k0" "kernel";
    mkEv 3 8 1 1 1 (-1) 2 4 (-1) "cudaLaunchKernel" "cuda_runtime";
    mkEv 4 11 2 0 7 7 2 3 (-1) "k1" "kernel";
    mkEv 5 1 1 1 1 (-1) 3 6 (-1) "cudaLaunchKernel" "cuda_runtime";
    mkEv 6 14 0 0 7 7 3 5 (-1) "k2" "kernel";
    mkEv 7 24 2 0 7 7 9 0 (-1) "orphan" "gpu_memcpy" ].
Example C06_nonvacuous : encode_C06 ex06 5 [7; 8] = [[6; 1; 10]; [0; 0; 0]].
Proof. vm_compute. reflexivity. Qed.

(* resolution independence: times and threshold multiplied by k > 0 give k times every category's idle time (same classification) *)
Theorem C06_resolution_independent : forall k l d s, 0 < k ->
  model_C06 (scale_evs k l) (k * d) s = map (Z.mul k) (model_C06 l d s).
Proof.
  intros k l d s Hk. unfold model_C06. rewrite stream_kernels_scale, sort_ev_scale, gaps_sorted_scale by exact Hk.
  rewrite !cat_sum_scale. reflexivity.
Qed.
Print Assumptions C06_resolution_independent.

(* the classification rule is regenerated from _analyze_idle_time_for_stream on every run (strict statement-by-statement reading) and
   is the model's (that the rows are ordered by (start, end), as the code sorts them, is C06_RulesTie's theorem, loaded above) *)
Theorem C06_rules_follow_source : forall d rt prev_end gap, classify d rt prev_end gap = classify_gen d rt prev_end gap.
Proof. intros d [r|] prev_end gap; reflexivity. Qed.
Print Assumptions C06_rules_follow_source.
