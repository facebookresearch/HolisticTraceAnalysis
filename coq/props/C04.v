(* C04 property theorems: temporal breakdown is an exact partition of the GPU activity span. *)
From Coq Require Import Permutation.
From HTA.lib Require Import Base Cells Intervals.
From HTA.model Require Import C04_Model.
From HTA.gen Require Import KernelRules_gen.
From HTA.proof Require Import KernelRulesTie C04_Proofs.
From HTA.gen Require Import BreakdownRules_gen.
From HTA.proof Require Import Scale C04_Scale.

(* For EVERY ts-sorted permutation D', C' of the device / computation intervals (pandas' unstable
   sort may return any of them): kernel_time = span, idle = uncovered cells, compute = cells covered
   by computation kernels, non_compute = the remainder; all >= 0; they add up to kernel_time. *)
Theorem C04_parts_exact : forall (l : list ev),
  durs_nonneg l -> dev_itvs l <> [] ->
  forall D' C', Permutation (dev_itvs l) D' -> sorted_ts D' -> Permutation (comp_itvs l) C' -> sorted_ts C' ->
  let '(idle, comp, noncomp, kt) := breakdown D' C' in
  exists lo hi, is_min_start lo (dev_itvs l) /\ is_max_end hi (dev_itvs l) /\ lo <= hi /\
    kt = hi - lo /\
    idle = cells (fun t => negb (covered (dev_itvs l) t)) lo hi /\
    comp = cells (covered (comp_itvs l)) lo hi /\
    noncomp = cells (fun t => covered (dev_itvs l) t && negb (covered (comp_itvs l) t)) lo hi /\
    0 <= idle /\ 0 <= comp /\ 0 <= noncomp /\ idle + comp + noncomp = kt.
Proof.
  intros l Hd Hne D' C'. apply parts_exact; [apply itvs_wf, Hd | exact Hne | apply comp_incl_dev].
Qed.
Print Assumptions C04_parts_exact.

(* the executable model is one of those permutations *)
Theorem C04_model_is_instance : forall l,
  model_C04 l = breakdown (sort_ts (dev_itvs l)) (sort_ts (comp_itvs l)) /\
  Permutation (dev_itvs l) (sort_ts (dev_itvs l)) /\ sorted_ts (sort_ts (dev_itvs l)) /\
  Permutation (comp_itvs l) (sort_ts (comp_itvs l)) /\ sorted_ts (sort_ts (comp_itvs l)).
Proof. repeat split; auto using sort_ts_perm, sort_ts_sorted. Qed.
Print Assumptions C04_model_is_instance.

(* the three asserts of idle_time_per_rank can never fire *)
Theorem C04_asserts_hold : forall (l : list ev),
  durs_nonneg l -> dev_itvs l <> [] ->
  forall D' C', Permutation (dev_itvs l) D' -> sorted_ts D' -> Permutation (comp_itvs l) C' -> sorted_ts C' ->
  let '(idle, comp, noncomp, kt) := breakdown D' C' in idle <= kt /\ comp <= kt /\ 0 <= noncomp.
Proof.
  intros l Hd Hne D' C' HpD HsD HpC HsC.
  pose proof (C04_parts_exact l Hd Hne D' C' HpD HsD HpC HsC) as H.
  destruct (breakdown D' C') as [[[idle comp] noncomp] kt].
  destruct H as [lo [hi H]]. lia.
Qed.
Print Assumptions C04_asserts_hold.

(* the interval-union routine itself, for every ts-sorted input *)
Theorem C04_merge_measure : forall l lo hi,
  wf_itvs l -> sorted_ts l -> l <> [] -> (forall i, In i l -> lo <= fst i /\ snd i <= hi) ->
  total (merge_sorted l) = cells (covered l) lo hi.
Proof. intros l lo hi Hw Hs _. apply total_merge_any; [exact Hw | apply Permutation_refl | exact Hs]. Qed.
Print Assumptions C04_merge_measure.

Theorem C04_merge_separated : forall l, wf_itvs l -> sorted_ts l -> separated (merge_sorted l).
Proof. exact merge_sorted_separated. Qed.
Print Assumptions C04_merge_separated.

(* non-vacuity: identical, nested, touching, zero-length, equal-start intervals; a comm kernel *)
Definition ex04 : list ev :=
  [ mkEv 0 0 1 1 1 (-1) (-1) (-1) (-1) "aten::zeros" "cpu_op";
    mkEv 1 2 3 0 7 7 1 0 (-1) "gemm" "kernel";
    mkEv 2 2 3 0 8 8 2 0 (-1) "gemm" "kernel";
    mkEv 3 5 2 0 7 7 3 0 (-1) "ncclKernel_AllReduce" "kernel";
    mkEv 4 3 1 0 9 9 4 0 (-1) "relu" "kernel";
    mkEv 5 9 0 0 7 7 5 0 (-1) "zero" "kernel";
    mkEv 6 10 2 0 7 7 6 0 (-1) "Memcpy DtoH" "gpu_memcpy" ].
Example C04_nonvacuous : encode_C04 ex04 = [3; 3; 4; 10].
Proof. vm_compute. reflexivity. Qed.

(* the tie by regeneration: the kernel classification of the model is the chain GENERATED from the current source (get_kernel_type, the codes of
   KernelType, the three regex wrappers; the regular expressions themselves are compared literally on every run) *)
Theorem C04_kernel_types_follow_source : forall n,
  ktype_code (get_kernel_type n) = kernel_type_gen (is_comm_kernel n) (is_memory_kernel n) (is_compute_kernel n).
Proof. exact kernel_type_is_generated. Qed.
Print Assumptions C04_kernel_types_follow_source.

(* resolution independence: a trace whose times are multiplied by k > 0 (fractional microseconds brought to a common denominator)
   has k times the idle, compute, non-compute and kernel time -- the percentages are those of the original *)
Theorem C04_resolution_independent : forall k l, 0 < k -> model_C04 (scale_evs k l) = scale4 k (model_C04 l).
Proof.
  intros k l Hk. unfold model_C04, dev_itvs, comp_itvs.
  rewrite !itvs_scale by reflexivity. rewrite !sort_ts_scale by exact Hk. apply breakdown_scale, Hk.
Qed.
Print Assumptions C04_resolution_independent.

(* the grouping test of merge_kernel_intervals (a new group iff the start is STRICTLY greater than the running maximum of the previous ends)
   and the arithmetic of the four reported times are read from the source on every run (strict statement-by-statement reading of
   merge_kernel_intervals, _get_idle_time_for_kernels and the per-rank helper) and are the model's *)
Theorem C04_rules_follow_source : forall (D' C' : list itv) cs ce m s e r,
  breakdown D' C' = breakdown_gen (first_ts (merge_sorted D')) (last_end (merge_sorted D')) (total (merge_sorted D')) (total (merge_sorted C')) /\
  merge_aux cs ce m ((s, e) :: r) =
    (if new_group_gen m s then (cs, ce) :: merge_aux s e (Z.max m e) r else merge_aux (Z.min cs s) (Z.max ce e) (Z.max m e) r).
Proof. intros. split; reflexivity. Qed.
Print Assumptions C04_rules_follow_source.
