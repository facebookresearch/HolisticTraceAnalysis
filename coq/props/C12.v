(* C12 property theorems: iteration numbers follow profiler steps; loading trims only the trailing step. *)
From HTA.lib Require Import Base.
From HTA.model Require Import Loader_Model.
From HTA.proof Require Import C12_Proofs.
From HTA.gen Require Import TrimRules_gen.
From HTA.proof Require Import Scale C12_Scale.
Open Scope Z_scope.

Theorem C12_host_iteration : forall l e s,
  stream e < 0 -> steps_unambiguous (step_rows l) -> In s (step_rows l) -> ts s <= ts e < ts s + dur s ->
  iter_of l e = step_no (name s).
Proof.
  intros l e s Hst Hu Hs Ht. rewrite iter_of_host by exact Hst. apply step_of_contains; assumption.
Qed.
Print Assumptions C12_host_iteration.

Theorem C12_host_no_step : forall l e,
  stream e < 0 -> (forall s, In s (step_rows l) -> ~ (ts s <= ts e < ts s + dur s)) -> iter_of l e = -1.
Proof. intros l e Hst Hn. rewrite iter_of_host by exact Hst. apply step_of_none. exact Hn. Qed.
Print Assumptions C12_host_no_step.

Theorem C12_device_iteration : forall l e r,
  0 < stream e -> NoDup (map idx l) -> In r l -> icorr e = idx r -> 0 < idx r -> stream r < 0 ->
  iter_of l e = iter_of l r.
Proof.
  intros l e r Hst Hnd Hr Hic Hpos Hsr. rewrite (iter_of_host l r) by exact Hsr. unfold iter_of.
  replace (stream e <? 0) with false by lia. replace (0 <? stream e) with true by lia.
  replace (0 <? icorr e) with true by lia. rewrite Hic, (find_by_key idx) by assumption. reflexivity.
Qed.
Print Assumptions C12_device_iteration.

Theorem C12_device_unlinked : forall l e, 0 < stream e -> icorr e <= 0 -> iter_of l e = -1.
Proof.
  intros l e Hst Hic. unfold iter_of. replace (stream e <? 0) with false by lia.
  replace (0 <? stream e) with true by lia. replace (0 <? icorr e) with false by lia. reflexivity.
Qed.
Print Assumptions C12_device_unlinked.

(* with at least two steps: exactly the host rows before the cut and the device rows whose id a kept host row carries *)
Theorem C12_trim_exact : forall incl l e,
  2 <= Z.of_nat (List.length (host_steps l)) ->
  (In e (trim incl l) <->
   In e l /\ ((is_host e = true /\ cut incl l e) \/
              (is_dev e = true /\ exists c, In c l /\ is_host c = true /\ cut incl l c /\ corr c = corr e))).
Proof.
  intros incl l e H2. unfold trim. replace (Z.of_nat (List.length (host_steps l)) <? 2) with false by lia.
  rewrite in_app_iff, kept_dev_In, kept_host_In. tauto.
Qed.
Print Assumptions C12_trim_exact.

Theorem C12_trim_noop_lt2 : forall incl l, Z.of_nat (List.length (host_steps l)) < 2 -> trim incl l = l.
Proof.
  intros incl l H. unfold trim. replace (Z.of_nat (List.length (host_steps l)) <? 2) with true by lia. reflexivity.
Qed.
Print Assumptions C12_trim_noop_lt2.

(* the two cut-offs are the start, resp. the end, of the step with the largest start *)
Theorem C12_last_step_start : forall l, host_steps l <> [] ->
  exists L, In L (host_steps l) /\ ts L = last_start l /\ forall s, In s (host_steps l) -> ts s <= ts L.
Proof. intros l Hne. apply maxZ_map_attained. exact Hne. Qed.
Print Assumptions C12_last_step_start.

Theorem C12_last_step_end : forall l L,
  (forall a b, In a (host_steps l) -> In b (host_steps l) -> a = b \/ eend a <= ts b \/ eend b <= ts a) ->
  (forall a, In a (host_steps l) -> 0 < dur a) ->
  In L (host_steps l) -> (forall s, In s (host_steps l) -> ts s <= ts L) ->
  last_end l = eend L.
Proof.
  intros l L Hdis Hpos HL Hmax.
  assert (Hne : host_steps l <> []) by (destruct (host_steps l); [destruct HL | discriminate]).
  destruct (maxZ_map_attained eend 0 _ Hne) as [M [HM [EM Hge]]]. fold (last_end l) in EM. rewrite <- EM.
  (* M, a step with the latest end, is L: were they disjoint, M before L would end before L does, and L before M would
     start before M does *)
  pose proof (Hge L HL) as HLM. pose proof (Hpos L HL) as HLpos. pose proof (Hmax M HM) as HML.
  destruct (Hdis M L HM HL) as [E | E]; [subst; reflexivity|].
  unfold eend in *. lia.
Qed.
Print Assumptions C12_last_step_end.

(* no row is duplicated, for ANY event mix (however many kept host rows carry a device row's correlation id): the statement the
   many-to-many merge repaired in 1af5ed4 violated; C01's "exactly one row per complete event" after a full load rests on it *)
Theorem C12_trim_no_dup : forall incl l, NoDup l -> NoDup (trim incl l).
Proof. intros incl l Hnd. rewrite <- (map_id (trim incl l)). apply trim_map_no_dup. rewrite map_id. exact Hnd. Qed.
Print Assumptions C12_trim_no_dup.

(* non-vacuity: two steps #3 [10,20) and #4 [25,40); an op before the first step, one in the gap, one at the very
   start of the last step; a kernel launched from step 3 that runs during step 4; an orphan kernel *)
Definition f12 : list raw :=
  [ mkRaw (Some 1) (Some "cpu_op") 2 1 1 None None "aten::zeros";
    mkRaw (Some 10) (Some "user_annotation") 10 1 1 None None "ProfilerStep#3";
    mkRaw (Some 15) (Some "user_annotation") 25 1 1 None None "ProfilerStep#4";
    mkRaw (Some 2) (Some "cuda_runtime") 12 1 1 None (Some 5) "cudaLaunchKernel";
    mkRaw (Some 4) (Some "kernel") 30 0 7 (Some 7) (Some 5) "gemm";
    mkRaw (Some 1) (Some "cpu_op") 22 1 1 None None "aten::add";
    mkRaw (Some 1) (Some "cpu_op") 25 1 1 None None "aten::mul";
    mkRaw (Some 2) (Some "cuda_runtime") 26 1 1 None (Some 6) "cudaLaunchKernel";
    mkRaw (Some 4) (Some "kernel") 35 0 7 (Some 7) (Some 6) "gemm";
    mkRaw (Some 4) (Some "kernel") 50 0 7 (Some 7) (Some 9) "orphan" ].
Example C12_nonvacuous :
  map (fun l => map (fun e => (idx e, iter e)) l) (load false [f12]) = [[(4, 3); (0, -1); (1, 3); (3, 3); (5, -1)]] /\
  map (fun l => map idx l) (load true [f12]) = [[4; 8; 0; 1; 2; 3; 5; 6; 7]].
Proof. vm_compute. split; reflexivity. Qed.

(* resolution independence: times multiplied by k > 0 change no iteration number, and the trimming keeps exactly the same rows *)
Theorem C12_resolution_independent : forall k incl l, 0 < k ->
  add_iter (scale_evs k l) = scale_evs k (add_iter l) /\ trim incl (scale_evs k l) = scale_evs k (trim incl l).
Proof. intros k incl l Hk. split; [apply add_iter_scale | apply trim_scale]; exact Hk. Qed.
Print Assumptions C12_resolution_independent.

(* the trimming rule is regenerated from Trace._filter_irrelevant_gpu_kernels on every run (strict statement-by-statement reading of
   the per-rank helper) and is the model's: below two steps nothing is dropped, host rows are cut at the latest step start (or end) *)
Theorem C12_trim_rules_follow_source : forall incl l e,
  keep_host incl l e = is_host e && host_cut_gen incl (ts e) (maxZ 0 (map ts (host_steps l))) (maxZ 0 (map eend (host_steps l))) /\
  is_step_row e = is_host e && contains step_marker_gen (name e) /\
  trim incl l = if Z.of_nat (List.length (host_steps l)) <? min_steps_gen then l else (kept_dev incl l ++ kept_host incl l)%list.
Proof. intros incl l e. split; [unfold keep_host, host_cut_gen; destruct incl; reflexivity|]. split; reflexivity. Qed.
Print Assumptions C12_trim_rules_follow_source.
