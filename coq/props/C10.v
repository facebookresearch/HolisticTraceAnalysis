(* C10 property theorems (verified checker): the breakdown conserves the path weight and attributes it correctly. *)
From HTA.lib Require Import Base.
From HTA.gen Require Import CpRules_gen.
From HTA.model Require Import C08_Model C08_Host C08_Dev.
From HTA.proof Require Import C08_HostProofs C08_RulesTie.
Open Scope Z_scope.

(* host side, by proof about the builder's state machine: for EVERY depth-first traversal of properly nested events in time order,
   every operator-span edge is attributed to an existing event of the thread whose span covers the edge's time range (also when
   events without graph nodes, such as user annotations, sit anywhere in the nest); dependency edges carry no attribution *)
Theorem C10_host_attribution_covers : forall tab acts t0,
  wf_actions tab [] [] t0 acts = true -> Forall (attribution_covers tab) (host_edges_of tab acts).
Proof. intros tab acts t0 H. eapply Forall_impl; [|exact (host_edges_good tab acts t0 H)]. intros e He. exact (proj2 He). Qed.
Print Assumptions C10_host_attribution_covers.

(* the tie by regeneration: the attributions of the two builder models are those of the rule GENERATED from the current source
   (CPGraph._attribute_edge: which edge types are attributed, and the chain choosing source event / destination event / parent) *)
Theorem C10_attribution_follows_generated_rule :
  (forall tab s a e, In e (snd (hstep tab s a)) -> rule_attr e (s_lastp s)) /\ (forall zw st r e, In e (snd (fst (dstep zw st r))) -> rule_attr e (-1)).
Proof.
  split; [intros tab s a e H; apply (host_rules_are_generated tab s a e H)|].
  intros zw st r e H. destruct (dev_rules_are_generated zw st r e H) as [z [_ [_ H3]]]. exact H3.
Qed.
Print Assumptions C10_attribution_follows_generated_rule.

(* the bound-by class demanded by the checker is the one bound_by, GENERATED from the current source, returns for the row's type and
   the attributed event's stream and name *)
Theorem C10_bound_by_follows_generated_rule : forall clipped ty evid a, find_ev clipped evid = Some a ->
  bound_code clipped ty evid = bound_by_gen ty (stream a) (is_comm_kernel (name a)).
Proof.
  intros clipped ty evid a H. unfold bound_code, bound_by_gen. rewrite H. cbn [existsb]. rewrite orb_false_r.
  reflexivity.
Qed.
Print Assumptions C10_bound_by_follows_generated_rule.

Theorem C10_row_rule : forall clipped N r, brow_ok clipped N r = true ->
  exists nu nv, find_node N (r_u r) = Some nu /\ find_node N (r_v r) = Some nv /\
    r_bound r = bound_code clipped (r_ty r) (r_ev r) /\
    (r_ty r = 0 -> exists a eu ev_, find_ev clipped (r_ev r) = Some a /\ find_ev clipped (c_ev nu) = Some eu /\ find_ev clipped (c_ev nv) = Some ev_ /\
                   ts a <= c_ts nu /\ c_ts nv <= ts a + dur a /\ pid a = pid eu /\ tid a = tid eu /\ pid a = pid ev_ /\ tid a = tid ev_) /\
    (r_ty r = 3 -> r_ev r = c_ev nu) /\
    (r_ty r <> 0 -> r_ty r <> 3 -> r_ev r = -1).
Proof.
  intros clipped N r. unfold brow_ok.
  destruct (find_node N (r_u r)) as [nu|]; [|discriminate]. destruct (find_node N (r_v r)) as [nv|]; [|discriminate].
  intro H. apply andb_prop in H. destruct H as [Hb H]. apply Z.eqb_eq in Hb.
  exists nu, nv. do 2 (split; [reflexivity|]). split; [exact Hb|].
  destruct (r_ty r =? 0) eqn:T0; [apply Z.eqb_eq in T0 | apply Z.eqb_neq in T0].
  - rewrite T0. split; [intros _ | split; [discriminate | intro X; contradiction X; reflexivity]].
    destruct (find_ev clipped (r_ev r)) as [a|]; [|discriminate]. destruct (find_ev clipped (c_ev nu)) as [eu|]; [|discriminate].
    destruct (find_ev clipped (c_ev nv)) as [ev_|]; [|discriminate]. exists a, eu, ev_. do 3 (split; [reflexivity|]).
    autorewrite with bool_prop in H. tauto.
  - split; [intro X; contradiction (T0 X)|].
    destruct (r_ty r =? 3) eqn:T3; [apply Z.eqb_eq in T3 | apply Z.eqb_neq in T3]; apply Z.eqb_eq in H.
    + split; [intros _; exact H | intros _ X; contradiction (X T3)].
    + split; [intro X; contradiction (T3 X) | intros _ _; exact H].
Qed.
Print Assumptions C10_row_rule.

Theorem C10_check_sound : forall clipped N cp_edges rows path_w,
  check_C10 clipped N cp_edges rows path_w = [true; true; true] ->
  sumZ (map r_w rows) = path_w /\ forall r, In r rows -> brow_ok clipped N r = true.
Proof.
  intros clipped N cp_edges rows path_w H. injection H as _ Hsum Hrows. split; [apply Z.eqb_eq, Hsum | apply forallb_forall, Hrows].
Qed.
Print Assumptions C10_check_sound.

Theorem C10_bound_by_rule : forall clipped ty evid a, find_ev clipped evid = Some a -> ty = 0 ->
  bound_code clipped ty evid = (if stream a <? 0 then 0 else if is_comm_kernel (name a) then 2 else 1).
Proof. intros clipped ty evid a H T. unfold bound_code. subst ty. cbn. rewrite H. reflexivity. Qed.
Print Assumptions C10_bound_by_rule.

Definition cl10 : list ev :=
  [ mkEv 1 0 6 1 1 (-1) (-1) (-1) (-1) "aten::add" "cpu_op"; mkEv 2 1 2 1 1 (-1) 7 3 (-1) "cudaLaunchKernel" "cuda_runtime";
    mkEv 3 5 4 0 7 7 7 2 (-1) "ncclKernel_AllReduce" "kernel" ].
Definition n10 : list cpnode :=
  [ mkN 0 1 0 true false; mkN 1 2 1 true false; mkN 2 2 3 false false; mkN 3 3 5 true false; mkN 4 1 6 false false; mkN 5 3 9 false false ].
Example C10_nonvacuous :
  check_C10 cl10 n10 [mkE 0 1 1 0; mkE 1 3 4 2; mkE 3 5 4 0] [mkBR 0 1 1 0 1 0; mkBR 1 3 4 2 (-1) 4; mkBR 3 5 4 0 3 2] 9 = [true; true; true].
Proof. vm_compute. reflexivity. Qed.
