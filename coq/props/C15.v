(* C15 property theorems: the launch-statistics rows are exactly the linked (launch call, device activity) pairs. *)
From HTA.lib Require Import Base.
From HTA.model Require Import C15_Model.
From HTA.proof Require Import C15_Proofs.
From HTA.gen Require Import LaunchStats_gen.
From HTA.proof Require Import Scale C15_Scale.

(* one row per linked (launch call, device activity) pair, no other row, none twice *)
Theorem C15_rows_bijection : forall mem l, NoDup l -> wf_launch l ->
  NoDup (pairs mem l) /\ (forall r k, In (r, k) (pairs mem l) <-> linked_pair mem l r k).
Proof.
  intros mem l Hnd Hwf. split; [apply NoDup_pairs; exact Hnd|].
  intros r k. apply in_pairs_wf. exact Hwf.
Qed.
Print Assumptions C15_rows_bijection.

Theorem C15_values : forall r k,
  row (r, k) = [corr r; dur r; dur k; Z.max 0 (ts k - (ts r + dur r))].
Proof. intros r k. unfold row. rewrite Z.sub_add_distr. reflexivity. Qed.
Print Assumptions C15_values.

(* flag off = flag on minus the pairs whose launch call is a memory launch *)
Theorem C15_memory_flag : forall l r k, wf_launch l ->
  (In (r, k) (pairs false l) <-> In (r, k) (pairs true l) /\ is_mem_launch (name r) = false).
Proof.
  intros l r k Hwf. rewrite !in_pairs_wf by exact Hwf. unfold linked_pair.
  rewrite launch_name_flag, andb_true_iff, negb_true_iff. tauto.
Qed.
Print Assumptions C15_memory_flag.

(* non-vacuity: a trace with a kernel launch, a memcpy launch, a launch without kernel, an orphan kernel *)
Definition ex15 : list ev :=
  [ mkEv 0 0 2 1 1 (-1) (-1) (-1) (-1) "aten::zeros" "cpu_op";
    mkEv 1 1 3 1 1 (-1) 10 2 (-1) "cudaLaunchKernel" "cuda_runtime";
    mkEv 2 9 4 0 7 7 10 1 (-1) "gemm" "kernel";
    mkEv 3 5 1 1 1 (-1) 11 4 (-1) "cudaMemcpyAsync" "cuda_runtime";
    mkEv 4 5 0 0 7 7 11 3 (-1) "Memcpy DtoH" "gpu_memcpy";
    mkEv 5 6 1 1 1 (-1) 12 0 (-1) "cudaLaunchKernel" "cuda_runtime";
    mkEv 6 20 1 0 7 7 13 0 (-1) "orphan" "kernel" ].
Example C15_nonvacuous :
  model_C15 true ex15 = [[10; 3; 4; 5]; [11; 1; 0; 0]] /\ model_C15 false ex15 = [[10; 3; 4; 5]].
Proof. vm_compute. split; reflexivity. Qed.

(* resolution independence: times multiplied by k >= 0 multiply the two durations and the delay of every row by k; same rows *)
Theorem C15_resolution_independent : forall k mem l, 0 <= k ->
  model_C15 mem (scale_evs k l) = map (scale_row15 k) (model_C15 mem l).
Proof.
  intros k mem l Hk. unfold model_C15. rewrite pairs_scale, !map_map. apply map_ext.
  intros [r g]. apply row_scale, Hk.
Qed.
Print Assumptions C15_resolution_independent.

(* the launch names, the memory-launch names and the delay rule are regenerated from cuda_kernel_launch_stats on every run (strict
   statement-by-statement reading of the per-rank loop: nothing may be hoisted out of it) and are the model's *)
Theorem C15_rules_follow_source :
  kernel_launch_names = kernel_launch_names_gen /\ memory_launch_names = memory_launch_names_gen /\
  (forall r k, row (r, k) = [corr r; dur r; dur k; launch_delay_gen (ts r) (dur r) (ts k)]).
Proof. split; [|split]; reflexivity. Qed.
Print Assumptions C15_rules_follow_source.
