(* C13 property theorems: call-graph attributes agree with the tree (verified checker). *)
From HTA.lib Require Import Base.
From HTA.proof Require Import C13_Proofs.
From HTA.model Require Import C13_Model.
From HTA.proof Require Import Scale C13_Scale.
Open Scope Z_scope.

(* a table accepted by the checker reports, for every host row, the count, summed duration, earliest start, latest end
   and span of ALL device activities among its descendants ((0, 0, -1, -1, 0) when there are none) *)
Theorem C13_local_equations_sound : forall T, check_table T = true ->
  forall n, In n T -> n_dev n = false -> 0 <= n_height n -> aggregates n (klist T (Z.to_nat (n_height n)) n).
Proof.
  intros T H n Hn Hd _. apply local_equations_sound; [|exact Hn | exact Hd]. intros m Hm. apply local_okb_sound.
  unfold check_table in H. rewrite forallb_forall in H. apply H, Hm.
Qed.
Print Assumptions C13_local_equations_sound.

Theorem C13_depth_parent_plus_one : forall T, (forall n, In n T -> local_ok T n) -> forall n, In n T ->
  match lookup_node T (n_parent n) with Some p => n_depth n = n_depth p + 1 | None => n_depth n = 0 end.
Proof. intros T Hlocal n Hn. exact (proj1 (Hlocal n Hn)). Qed.
Print Assumptions C13_depth_parent_plus_one.

Theorem C13_height_rule : forall T, (forall n, In n T -> local_ok T n) -> forall n, In n T ->
  if n_dev n then n_height n = 0 else n_height n = 1 + maxZ 0 (0 :: map n_height (kids T (n_id n))).
Proof. intros T Hlocal n Hn. destruct (Hlocal n Hn) as [_ Hl]. destruct (n_dev n); cbv zeta in Hl; tauto. Qed.
Print Assumptions C13_height_rule.

Theorem C13_checker_sound : forall T n, local_okb T n = true -> local_ok T n.
Proof. exact local_okb_sound. Qed.
Print Assumptions C13_checker_sound.

(* non-vacuity: op 0 -> {launch 1 -> kernel 3, op 2 -> launch 4 -> kernel 5}; kernels [10,13) and [20,24) *)
Definition t13 : list node :=
  [ mkNode 0 (-1) false 0 30 0 3 2 7 10 24 14; mkNode 1 0 false 1 2 1 1 1 3 10 13 3; mkNode 2 0 false 5 10 1 2 1 4 20 24 4;
    mkNode 3 1 true 10 3 2 0 1 3 10 13 3; mkNode 4 2 false 6 1 2 1 1 4 20 24 4; mkNode 5 4 true 20 4 3 0 1 4 20 24 4 ].
Example C13_nonvacuous : check_table t13 = true /\ map n_id (klist t13 3 (mkNode 0 (-1) false 0 30 0 3 2 7 10 24 14)) = [3; 5].
Proof. vm_compute. split; reflexivity. Qed.

(* resolution independence of the tree: times multiplied by k > 0 leave the parent relation (host trees, backward attachment, device
   children) unchanged, hence depth and height, which are functions of that relation alone *)
Theorem C13_tree_resolution_independent : forall k l, 0 < k -> parent_map (scale_evs k l) = parent_map l.
Proof. exact C13_parent_map_scale. Qed.
Print Assumptions C13_tree_resolution_independent.

(* ... and the kernel totals: the count is unchanged, the summed duration and the earliest start are multiplied by k, the latest
   end is multiplied by k or is still the sentinel -1 -- the statement the whole-microsecond truncation fixed in 1b44595 violated *)
Theorem C13_kernel_totals_resolution_independent : forall k fuel l devs m tmax i, 0 < k ->
  kinfo_rel k (kinfo_of fuel l devs m tmax i) (kinfo_of fuel (scale_evs k l) devs m (k * tmax) i).
Proof. exact kinfo_of_scale. Qed.
Print Assumptions C13_kernel_totals_resolution_independent.
