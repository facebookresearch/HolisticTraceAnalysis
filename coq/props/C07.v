(* C07 property theorems: communication/computation overlap is the exact time ratio. *)
From Coq Require Import Permutation.
From HTA.lib Require Import Base Cells Intervals Sweep.
From HTA.model Require Import C04_Model C07_Model.
From HTA.gen Require Import KernelRules_gen.
From HTA.proof Require Import KernelRulesTie C04_Proofs C07_Proofs.
From HTA.gen Require Import OverlapRules_gen.
From HTA.proof Require Import Scale C04_Scale C07_Scale.

(* For EVERY ts-sorted permutation A', B' of the communication / computation intervals and EVERY
   time-sorted permutation R' of the +-1 / +-2 status rows (ties inside an instant in any order):
   numerator = time during which a communication AND a computation kernel run, denominator = time during
   which a communication kernel runs, 0 <= numerator <= denominator (so the percentage is in [0,100]). *)
Theorem C07_overlap_exact : forall (l : list ev), durs_nonneg l ->
  forall A' B' R' lo hi,
  Permutation (comm_itvs l) A' -> sorted_ts A' -> Permutation (comp_itvs l) B' -> sorted_ts B' ->
  Permutation (status_rows (merge_sorted A') (merge_sorted B')) R' -> sorted_time R' ->
  (forall i, In i (comm_itvs l ++ comp_itvs l) -> lo <= fst i /\ snd i <= hi) ->
  let (num, den) := overlap A' R' in
  num = cells (fun t => covered (comm_itvs l) t && covered (comp_itvs l) t) lo hi /\
  den = cells (covered (comm_itvs l)) lo hi /\ 0 <= num <= den.
Proof.
  intros l Hd A' B' R' lo hi. apply overlap_exact_itvs; apply itvs_wf, Hd.
Qed.
Print Assumptions C07_overlap_exact.

Theorem C07_model_is_instance : forall l,
  let A' := sort_ts (comm_itvs l) in let B' := sort_ts (comp_itvs l) in
  let R' := sort_time (status_rows (merge_sorted A') (merge_sorted B')) in
  model_C07 l = overlap A' R' /\
  Permutation (comm_itvs l) A' /\ sorted_ts A' /\ Permutation (comp_itvs l) B' /\ sorted_ts B' /\
  Permutation (status_rows (merge_sorted A') (merge_sorted B')) R' /\ sorted_time R'.
Proof.
  cbv zeta. repeat split; auto using sort_ts_perm, sort_ts_sorted, sort_time_perm, sort_time_sorted.
Qed.
Print Assumptions C07_model_is_instance.

(* the percentage 100 * num / den lies in [0, 100] whenever it is defined *)
Theorem C07_bounds : forall num den, 0 <= num <= den -> 0 < den -> 0 <= 100 * num <= 100 * den.
Proof. lia. Qed.
Print Assumptions C07_bounds.

(* the sweep itself, for any selection of running values and any tie order *)
Theorem C07_sweep_exact : forall sel rows rows' lo hi,
  sel 0 = false -> sumZ (map snd rows) = 0 -> Permutation rows rows' -> sorted_time rows' ->
  (forall r, In r rows -> lo <= fst r <= hi) ->
  sweep sel 0 rows' = cells (fun u => sel (level rows u)) lo hi.
Proof. exact sweep_exact. Qed.
Print Assumptions C07_sweep_exact.

(* non-vacuity: comm [2,8) and [8,9) touching, comp [0,3), [3,3) zero length, [5,7), identical [5,7), comp starting
   at the instant comm ends [9,12); overlap = [2,3) + [5,7) = 3, comm time = 7 *)
Definition ex07 : list ev :=
  [ mkEv 0 0 1 1 1 (-1) (-1) (-1) (-1) "aten::zeros" "cpu_op";
    mkEv 1 2 6 0 7 7 1 0 (-1) "ncclKernel_AllReduce" "kernel";
    mkEv 2 8 1 0 7 7 2 0 (-1) "ncclDevKernel_x" "kernel";
    mkEv 3 0 3 0 8 8 3 0 (-1) "gemm" "kernel";
    mkEv 4 3 0 0 8 8 4 0 (-1) "gemm" "kernel";
    mkEv 5 5 2 0 8 8 5 0 (-1) "relu" "kernel";
    mkEv 6 5 2 0 9 9 6 0 (-1) "relu" "kernel";
    mkEv 7 9 3 0 9 9 7 0 (-1) "relu" "kernel";
    mkEv 8 4 1 0 9 9 8 0 (-1) "Memcpy DtoH" "gpu_memcpy" ].
Example C07_nonvacuous : encode_C07 ex07 = [3; 7].
Proof. vm_compute. reflexivity. Qed.

(* the tie by regeneration: the kernel classification of the model is the chain GENERATED from the current source (get_kernel_type, the codes of
   KernelType, the three regex wrappers; the regular expressions themselves are compared literally on every run) *)
Theorem C07_kernel_types_follow_source : forall n,
  ktype_code (get_kernel_type n) = kernel_type_gen (is_comm_kernel n) (is_memory_kernel n) (is_compute_kernel n).
Proof. exact kernel_type_is_generated. Qed.
Print Assumptions C07_kernel_types_follow_source.

(* resolution independence: times multiplied by k > 0 multiply numerator and denominator by k -- the ratio is unchanged *)
Theorem C07_resolution_independent : forall k l, 0 < k ->
  model_C07 (scale_evs k l) = (k * fst (model_C07 l), k * snd (model_C07 l)).
Proof.
  intros k l Hk. unfold model_C07, comm_itvs, comp_itvs.
  rewrite !itvs_scale by reflexivity. rewrite !sort_ts_scale, !merge_sorted_scale by exact Hk.
  rewrite status_rows_scale, sort_time_scale by exact Hk. apply overlap_scale, Hk.
Qed.
Print Assumptions C07_resolution_independent.

(* the weights of the boundary rows (+-1 communication, +-2 computation) and the running value that counts as overlap (their sum) are
   read from get_comm_comp_overlap_value on every run (strict statement-by-statement reading) and are the model's *)
Theorem C07_rules_follow_source : forall (A B A' : list itv) (R' : list row),
  status_rows A B = (rows_of comm_weight_gen A ++ rows_of comp_weight_gen B)%list /\
  overlap A' R' = (sweep (Z.eqb overlap_level_gen) 0 R', total (merge_sorted A')) /\
  overlap_level_gen = comm_weight_gen + comp_weight_gen.
Proof. intros. repeat split. Qed.
Print Assumptions C07_rules_follow_source.
