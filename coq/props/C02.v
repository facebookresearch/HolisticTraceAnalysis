(* C02 property theorems: correlation links are mutual, opposite-side, same-id, or a sentinel. *)
From HTA.lib Require Import Base.
From HTA.model Require Import Loader_Model.
From HTA.gen Require Import LinkRules_gen.
From HTA.proof Require Import C02_Proofs.
Open Scope Z_scope.

Theorem C02_link_mutual : forall l e p,
  wf_corr l -> In e l -> In p l -> partner_b e p = true ->
  link_of l e = idx p /\ link_of l p = idx e.
Proof.
  intros l e p Hwf He Hp Hb. split.
  - apply link_partner; assumption.
  - apply link_partner; [assumption .. | apply partner_b_sym; exact Hb].
Qed.
Print Assumptions C02_link_mutual.

Theorem C02_link_sentinel : forall l e,
  (forall p, In p l -> partner_b e p = false) ->
  link_of l e = Z.min (corr e) 0 /\
  (corr e = -1 -> link_of l e = -1) /\ (0 <= corr e -> link_of l e = 0).
Proof.
  intros l e Hn. assert (E : link_of l e = Z.min (corr e) 0).
  { destruct (link_of_cases l e) as [[p [Hp [Hb _]]] | [_ E]]; [|exact E].
    rewrite (Hn p Hp) in Hb. discriminate. }
  rewrite E. repeat split; lia.
Qed.
Print Assumptions C02_link_sentinel.

(* no wf hypothesis at all: never another id, never the own side *)
Theorem C02_never_other_id_or_same_side : forall l e,
  0 < link_of l e ->
  exists p, In p l /\ idx p = link_of l e /\ corr p = corr e /\ corr e <> -1 /\ is_dev p <> is_dev e.
Proof.
  intros l e Hpos. destruct (link_of_cases l e) as [[p [Hp [Hb E]]] | [_ E]]; [|lia].
  apply partner_b_spec in Hb. exists p. rewrite E. tauto.
Qed.
Print Assumptions C02_never_other_id_or_same_side.

Theorem C02_trichotomy : forall l e,
  (exists p, In p l /\ partner_b e p = true /\ link_of l e = idx p) \/
  (corr e = -1 /\ link_of l e = -1) \/ (0 <= corr e /\ link_of l e = 0) \/ (corr e < -1 /\ link_of l e = corr e).
Proof.
  intros l e. destruct (link_of_cases l e) as [H | [_ E]]; [left; exact H | right].
  rewrite E. lia.
Qed.
Print Assumptions C02_trichotomy.

Theorem C02_partner_spec : forall e p,
  partner_b e p = true <-> corr p = corr e /\ corr e <> -1 /\ is_dev p <> is_dev e.
Proof. exact partner_b_spec. Qed.
Print Assumptions C02_partner_spec.

Theorem C02_link_rows : forall l e',
  In e' (link l) <-> exists e, In e l /\ e' = set_icorr e (link_of l e).
Proof.
  intros l e'. unfold link. rewrite in_map_iff. split; intros [e [H1 H2]]; exists e; split; auto.
Qed.
Print Assumptions C02_link_rows.

(* non-vacuity: a launch/kernel pair, a launch without kernel, an orphan kernel, a Context Sync on stream -1 *)
Definition ex02 : list ev :=
  [ mkEv 0 0 2 1 1 (-1) (-1) 0 0 "aten::zeros" "cpu_op";
    mkEv 1 1 3 1 1 (-1) 10 0 0 "cudaLaunchKernel" "cuda_runtime";
    mkEv 2 9 4 0 7 7 10 0 0 "gemm" "kernel";
    mkEv 3 5 1 1 1 (-1) 11 0 0 "cudaLaunchKernel" "cuda_runtime";
    mkEv 4 20 1 0 7 7 13 0 0 "orphan" "kernel";
    mkEv 5 21 5 1 1 (-1) 14 0 0 "cudaDeviceSynchronize" "cuda_runtime";
    mkEv 6 22 3 0 0 (-1) 14 0 0 "Context Sync" "cuda_sync" ].
Example C02_nonvacuous : map icorr (link ex02) = [-1; 2; 1; 0; 0; 6; 5].
Proof. vm_compute. reflexivity. Qed.
(* the six rows of ex02 that carry an id differ in (correlation id, side) *)
Lemma ex02_wf : wf_corr ex02.
Proof.
  apply wf_corr_by_key. vm_compute.
  repeat (constructor; [simpl; intuition discriminate|]). constructor.
Qed.
Example C02_wf_nonvacuous : forall e p q, In e ex02 -> In p ex02 -> In q ex02 ->
  partner_b e p = true -> partner_b e q = true -> idx p = idx q.
Proof. intros e p q He Hp Hq Bp Bq. f_equal. exact (ex02_wf e p q He Hp Hq Bp Bq). Qed.

(* the fallback value, the "has an id" test of the pairing and the alignment shift are regenerated from transform_correlation_to_index
   and Trace._align_all_ranks on every run (strict statement-by-statement reading) and are the model's *)
Theorem C02_rules_follow_source : forall l e,
  (find (partner_b e) l = None -> link_of l e = link_fallback_gen (corr e)) /\
  (forall p, partner_b e p = (corr p =? corr e) && has_id_gen (corr e) && xorb (is_dev p) (is_dev e)).
Proof. intros l e. split; [intro H; unfold link_of; rewrite H; reflexivity | intro p; reflexivity]. Qed.
Print Assumptions C02_rules_follow_source.

Theorem C02_alignment_follows_source : forall c e, ts (shift c e) = aligned_gen c (ts e).
Proof. reflexivity. Qed.
Print Assumptions C02_alignment_follows_source.
