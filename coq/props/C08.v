(* C08 property theorems (verified checker): the critical-path graph is a forward-in-time DAG with typed, non-negative edges. *)
From HTA.lib Require Import Base Dag.
From HTA.model Require Import C08_Model C08_Host C08_Dev C08_Clip.
From HTA.proof Require Import C08_Proofs C08_HostProofs C08_DevProofs C08_RulesTie C08_ClipProofs.
From HTA.proof Require Import Scale C08_HostScale C08_DevScale C08_ClipScale.
Open Scope Z_scope.

Theorem C08_edges_forward_nonneg : forall zw clipped N E e, edge_ok zw clipped N E e = true ->
  exists nu nv, find_node N (g_u e) = Some nu /\ find_node N (g_v e) = Some nv /\ c_ts nu <= c_ts nv /\ 0 <= g_w e.
Proof.
  intros zw clipped N E e H. destruct (edge_ok_inv zw clipped N E e H) as (nu & nv & _ & _ & Hu & Hv & _ & _ & Hfw & Hnn & _).
  exists nu, nv. auto.
Qed.
Print Assumptions C08_edges_forward_nonneg.

Theorem C08_weight_rule : forall zw clipped N E e, edge_ok zw clipped N E e = true ->
  exists nu nv, find_node N (g_u e) = Some nu /\ find_node N (g_v e) = Some nv /\
    ((g_ty e = 1 \/ g_ty e = 4) -> g_w e = 0) /\
    (g_ty e = 3 -> g_w e = c_ts nv - c_ts nu) /\
    (g_ty e = 0 -> g_w e = c_ts nv - c_ts nu \/ (g_w e = 0 /\ c_start nv = false /\ c_block nv = true)) /\
    (g_ty e = 2 -> g_w e = c_ts nv - c_ts nu \/ (zw = true /\ g_w e = 0)) /\
    (g_ty e = 0 \/ g_ty e = 1 \/ g_ty e = 2 \/ g_ty e = 3 \/ g_ty e = 4).
Proof.
  intros zw clipped N E e H. destruct (edge_ok_inv zw clipped N E e H) as (nu & nv & eu & ev_ & Hu & Hv & _ & _ & _ & _ & R).
  exists nu, nv. split; [exact Hu|]. split; [exact Hv|]. clear - R.
  (* the clause of the edge's own type is R; the premises of the others are false *)
  destruct R as [[T R]|[[T R]|[[T R]|[[T R]|[T R]]]]]; rewrite T; intuition discriminate.
Qed.
Print Assumptions C08_weight_rule.

Theorem C08_type_discipline : forall zw clipped N E e, edge_ok zw clipped N E e = true ->
  exists nu nv eu ev_, find_node N (g_u e) = Some nu /\ find_node N (g_v e) = Some nv /\
    find_ev clipped (c_ev nu) = Some eu /\ find_ev clipped (c_ev nv) = Some ev_ /\
    (g_ty e = 2 -> c_start nu = true /\ c_start nv = true /\ is_dev_ev eu = false /\ is_dev_ev ev_ = true /\ icorr ev_ = idx eu /\ 0 < icorr ev_) /\
    (g_ty e = 3 -> c_start nu = false /\ c_start nv = true /\ is_dev_ev eu = true /\ is_dev_ev ev_ = true /\ stream eu = stream ev_ /\
                   forall k, In k clipped -> analysed k = true -> is_dev_ev k = true -> stream k = stream eu -> cat k <> "cuda_sync"%string ->
                             ~ (ts eu < ts k < ts ev_)) /\
    (g_ty e = 4 -> c_start nu = false /\ is_dev_ev eu = true /\
                   ((c_start nv = false /\ is_dev_ev ev_ = false) \/ (c_start nv = true /\ is_dev_ev ev_ = true /\ stream eu <> stream ev_))).
Proof.
  intros zw clipped N E e H. destruct (edge_ok_inv zw clipped N E e H) as (nu & nv & eu & ev_ & Hu & Hv & Heu & Hev & _ & _ & R).
  exists nu, nv, eu, ev_. do 4 (split; [assumption|]). clear - R.
  destruct R as [[T R]|[[T R]|[[T R]|[[T R]|[T R]]]]]; rewrite T; intuition discriminate.
Qed.
Print Assumptions C08_type_discipline.

Theorem C08_acyclic : forall E order p,
  rank_okb (map to_edge E) (rank_of 1 order) = true -> is_path (map to_edge E) p -> path_end (path_start p) p <> path_start p.
Proof. intros E order p H. apply (acyclic _ (alookup (rank_of 1 order))), rank_okb_sound, H. Qed.
Print Assumptions C08_acyclic.

(* host side, by proof about the builder's state machine (not a checker): for EVERY depth-first traversal of properly nested
   events in time order, of any depth, with any mix of events that have graph nodes and events that have none, every edge the
   enter / exit callbacks emit points forward in time and weighs the time difference, or zero for a dependency or the closing
   edge of a blocking call *)
Theorem C08_host_edges_forward_nonneg : forall tab acts t0,
  wf_actions tab [] [] t0 acts = true -> Forall (forward_nonneg tab) (host_edges_of tab acts).
Proof. intros tab acts t0 H. eapply Forall_impl; [|exact (host_edges_good tab acts t0 H)]. intros e He. exact (proj1 He). Qed.
Print Assumptions C08_host_edges_forward_nonneg.

(* non-vacuity of the host theorem: outer[0,100]{ annotation[10,30]{ b[12,20] } c[50,60] }, the annotation has no nodes *)
Example C08_host_nonvacuous :
  encode_host [mkH 0 0 100 true false (-1); mkH 1 10 30 false false 0; mkH 2 12 20 true false 1; mkH 3 50 60 true false 0]
              [Enter 0; Enter 1; Enter 2; Exit 2; Exit 1; Enter 3; Exit 3; Exit 0] 0 =
  (true, [[0; 1; 2; 1; 12; 0; 0]; [2; 0; 3; 1; 30; 0; 0]; [2; 1; 2; 0; 8; 0; 2]; [3; 0; 0; 0; 40; 0; 0]; [3; 1; 3; 0; 10; 0; 3]]).
Proof. vm_compute. reflexivity. Qed.

(* device side, by proof about the loop of _construct_graph_from_kernels: for EVERY causally consistent processing sequence (any number
   of streams, activities and synchronisation records; with and without zero-weight launch edges) every emitted edge points forward in
   time, is non-negative, weighs the time difference or zero as its type prescribes, and joins start / end nodes as its type demands *)
Theorem C08_dev_edges_forward_typed : forall zw rows, dwf [] rows = true -> Forall DGood (fst (drun zw [] rows)).
Proof. intros zw rows H. exact (drun_good zw rows [] (Forall_nil _) H). Qed.
Print Assumptions C08_dev_edges_forward_typed.

(* non-vacuity: launch [0,2) -> kernel [5,9) on stream 7 (queue 1 -> 0), a second kernel [9,12) launched at 3 while the first was queued
   (queue 2), a device synchronisation returning at 14 *)
Example C08_dev_nonvacuous :
  encode_dev false [DK 2 7 5 9 1 0 true 1 0; DK 4 7 9 12 3 3 true 2 0; DC 5 14 true] =
  (true, true, [[1; 1; 2; 1; 5; 2; -2]; [2; 0; 4; 1; 0; 3; 2]; [2; 1; 2; 0; 4; 0; 2]; [4; 0; 5; 0; 0; 4; -2]; [4; 1; 4; 0; 3; 0; 4]]).
Proof. vm_compute. reflexivity. Qed.

(* the tie by regeneration: the weights the two builder models give their edges are those of the weight rule GENERATED from the
   current source (CPGraph._add_edge_helper; type codes from the member order of CPEdgeType) *)
Theorem C08_weights_follow_generated_rule :
  (forall tab s a e, In e (snd (hstep tab s a)) -> rule_weight e (closing_blocking tab a)) /\ (forall zw st r e, In e (snd (fst (dstep zw st r))) -> exists zero, rule_weight e zero /\ (zero = true -> he_ty e = 2 /\ zw = true)).
Proof.
  split; [intros tab s a e H; apply (host_rules_are_generated tab s a e H)|].
  intros zw st r e H. destruct (dev_rules_are_generated zw st r e H) as [z [H1 [H2 _]]]. exists z. split; assumption.
Qed.
Print Assumptions C08_weights_follow_generated_rule.

(* the analysed window: a host row is kept exactly when it starts in the window and lasts; a kept device row (other than a Stream
   Wait Event record) has its launching / synchronising host row among the kept rows, for every frame and every window *)
Theorem C08_window_closed : forall lo hi l,
  (forall e, In e l -> stream e = -1 -> (In e (clip lo hi l) <-> lo <= ts e <= hi /\ 0 < dur e)) /\
  (forall d, In d (clip lo hi l) -> stream d <> -1 -> name d <> "Stream Wait Event"%string ->
     exists h, In h (clip lo hi l) /\ stream h = -1 /\ icorr h = idx d).
Proof. intros lo hi l. split; [apply clip_host_iff | apply clip_closed]. Qed.
Print Assumptions C08_window_closed.

(* non-vacuity: launch call [0,2) launches kernel [5,9); a second kernel [9,12) on the stream; sync call [10,14) waits *)
Definition cl08 : list ev :=
  [ mkEv 1 0 2 1 1 (-1) 7 2 (-1) "cudaLaunchKernel" "cuda_runtime"; mkEv 2 5 4 0 7 7 7 1 (-1) "gemm" "kernel";
    mkEv 3 3 1 1 1 (-1) 8 4 (-1) "cudaLaunchKernel" "cuda_runtime"; mkEv 4 9 3 0 7 7 8 3 (-1) "relu" "kernel";
    mkEv 5 10 4 1 1 (-1) 9 6 (-1) "cudaDeviceSynchronize" "cuda_runtime"; mkEv 6 10 2 0 0 (-1) 9 5 (-1) "Context Sync" "cuda_sync" ].
Definition n08 : list cpnode :=
  [ mkN 0 1 0 true false; mkN 1 1 2 false false; mkN 2 3 3 true false; mkN 3 3 4 false false; mkN 4 2 5 true false; mkN 5 2 9 false false;
    mkN 6 4 9 true false; mkN 7 5 10 true true; mkN 8 4 12 false false; mkN 9 5 14 false true ].
Definition e08 : list cpedge :=
  [ mkE 0 1 2 0; mkE 1 2 0 1; mkE 2 3 1 0; mkE 3 7 0 1; mkE 7 9 0 0; mkE 4 5 4 0; mkE 0 4 5 2; mkE 6 8 3 0; mkE 5 6 0 3; mkE 8 9 0 4 ].
Example C08_nonvacuous : check_C08 false cl08 n08 e08 [0; 1; 2; 3; 4; 5; 6; 7; 8; 9] = [true; true; true; true].
Proof. vm_compute. reflexivity. Qed.

(* resolution independence of the host-side builder: event times multiplied by k give the same edges between the same nodes, with
   node times and weights multiplied by k (types and attributions unchanged); with C08_host_edges_forward_nonneg this carries the
   forward / non-negative / attribution results over to fractional microseconds *)
Theorem C08_host_resolution_independent : forall k tab acts,
  host_edges_of (map (shev k) tab) acts = map (shedge k) (host_edges_of tab acts).
Proof. intros k tab acts. unfold host_edges_of. change hinit with (shst k hinit) at 1. apply hrun_scale. Qed.
Print Assumptions C08_host_resolution_independent.

(* ... and of the device-side loop: the same edges with node times and weights multiplied by k, the same verdict of the code's
   own launch assertion (queue lengths, stream and event ids are not times) *)
Theorem C08_dev_resolution_independent : forall k zw rows, 0 < k ->
  drun zw [] (map (sdrow k) rows) = (map (shedge k) (fst (drun zw [] rows)), snd (drun zw [] rows)).
Proof. intros k zw rows Hk. change (@nil (Z * hnode)) with (sdst k []) at 1. apply drun_scale, Hk. Qed.
Print Assumptions C08_dev_resolution_independent.

(* ... and of the window and the kept rows: the window's bounds are multiplied by k and exactly the same rows are kept *)
Theorem C08_window_resolution_independent : forall k ann i j lo hi l, 0 < k ->
  window ann i j (scale_evs k l) = (k * fst (window ann i j l), k * snd (window ann i j l)) /\
  clip (k * lo) (k * hi) (scale_evs k l) = scale_evs k (clip lo hi l).
Proof. intros k ann i j lo hi l Hk. split; [apply window_scale | apply clip_scale]; exact Hk. Qed.
Print Assumptions C08_window_resolution_independent.
