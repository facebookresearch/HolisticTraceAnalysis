(* C19 property theorems: a saved critical-path graph restores to an identical graph (partial: codecs assumed). *)
From HTA.lib Require Import Base.
From HTA.gen Require Import SaveFields_gen.
From HTA.model Require Import C19_Model.
From HTA.proof Require Import C19_Proofs.

(* on the field lists read out of the CURRENT source: every attribute the observers (critical_path, the breakdown, the
   summary, the attribution look-ups, graph validation) read is restored from a saved field, set by __init__ on the
   restore path, or read back from the trace csv; dataclass, save call and restore function agree *)
Theorem C19_fields_covered : fields_covered = true /\ lists_agree = true /\ forallb field_covered (init_fields ++ restored_other) = true.
Proof.
  split; [vm_compute; reflexivity | split; [vm_compute; reflexivity|]].
  apply forallb_forall. intros k Hk. apply init_other_covered, in_app_or, Hk.
Qed.
Print Assumptions C19_fields_covered.

(* one cycle, for any values, any graph, any frame, under the codec round-trip hypotheses *)
Theorem C19_roundtrip : forall (V G T PG PT PD : Type) (encG : G -> PG) (decG : PG -> G) (encT : T -> PT) (decT : PT -> T)
    (encD : list (string * V) -> PD) (decD : PD -> list (string * V)),
  (forall g, decG (encG g) = g) -> (forall t, decT (encT t) = t) -> (forall d, decD (encD d) = d) ->
  forall (base : string -> V) (s : gstate V G T),
  fields_covered = true ->
  (forall k, In k init_fields \/ In k restored_other -> base k = s_attr V G T s k) ->
  observe V G T (restore V G T PG PT PD decG decT decD base (save V G T PG PT PD encG encT encD s)) = observe V G T s.
Proof.
  intros V G T PG PT PD encG decG encT decT encD decD codecG codecT codecD base s.
  exact (cycles_observe V G T PG PT PD encG decG encT decT encD decD codecG codecT codecD base 1 s).
Qed.
Print Assumptions C19_roundtrip.

Theorem C19_iterated : forall (V G T PG PT PD : Type) (encG : G -> PG) (decG : PG -> G) (encT : T -> PT) (decT : PT -> T)
    (encD : list (string * V) -> PD) (decD : PD -> list (string * V)),
  (forall g, decG (encG g) = g) -> (forall t, decT (encT t) = t) -> (forall d, decD (encD d) = d) ->
  forall (base : string -> V) n (s : gstate V G T),
  fields_covered = true ->
  (forall k, In k init_fields \/ In k restored_other -> base k = s_attr V G T s k) ->
  (forall k, In k init_fields \/ In k restored_other -> field_covered k = true) ->
  observe V G T (cycles V G T PG PT PD encG decG encT decT encD decD n base s) = observe V G T s.
Proof.
  intros V G T PG PT PD encG decG encT decT encD decD codecG codecT codecD base n s Hcov Hbase _.
  apply cycles_observe; assumption.
Qed.
Print Assumptions C19_iterated.

(* non-vacuity: identity codecs, three cycles on a concrete state *)
Example C19_nonvacuous :
  let s := mkState nat nat nat 7%nat 9%nat (fun f => List.length (list_ascii_of_string f)) in
  observe nat nat nat (cycles nat nat nat nat nat (list (string * nat)) (fun x => x) (fun x => x) (fun x => x) (fun x => x) (fun x => x) (fun x => x) 3%nat
                         (fun f => List.length (list_ascii_of_string f)) s) = observe nat nat nat s.
Proof. vm_compute. reflexivity. Qed.
