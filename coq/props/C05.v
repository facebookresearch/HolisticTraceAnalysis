(* C05 property theorems: kernel breakdown partitions busy time by type and conserves per-kernel time. *)
From Coq Require Import Permutation.
From HTA.lib Require Import Base Cells Intervals Sweep.
From HTA.model Require Import C04_Model C07_Model C05_Model.
From HTA.gen Require Import KernelRules_gen KernelBreakdownRules_gen.
From HTA.proof Require Import KernelRulesTie C04_Proofs C07_Proofs C05_Proofs.
From HTA.proof Require Import Scale C07_Scale C05_Scale.
Open Scope list_scope.
Open Scope Z_scope.

(* for EVERY time-sorted permutation (tie order) of the boundary rows of the merged per-type interval sets: the time
   credited to the bit pattern m is the number of time cells during which exactly that combination of types runs *)
Theorem C05_type_rows_exact : forall sets rows' m lo hi,
  m <> 0 ->
  Forall (fun s => separated s /\ forall i, In i s -> lo <= fst i /\ snd i <= hi) sets ->
  Permutation (rows_of_sets 1 sets) rows' -> sorted_time rows' ->
  pattern_time rows' m = cells (fun t => pattern 1 sets t =? m) lo hi.
Proof.
  intros sets rows' m lo hi Hm Hs. apply pattern_time_draws; [exact Hm | apply draws_rows_of_sets, Hs].
Qed.
Print Assumptions C05_type_rows_exact.

(* the model's table (COMPUTATION bit 1, COMMUNICATION bit 2, MEMORY bit 4) is such an instance, stated on the raw kernels *)
Theorem C05_model_types_exact : forall tys l lo hi m,
  durs_nonneg l -> m <> 0 ->
  (forall e, In e l -> on_device e = true -> lo <= ts e /\ ts e + dur e <= hi) ->
  pattern_time (sort_time (type_rows 1 tys l)) m =
  cells (fun t => pattern 1 (map (fun ty => type_itvs ty l) tys) t =? m) lo hi.
Proof.
  intros tys l lo hi m Hd Hm Hb. apply (pattern_time_draws (type_rows 1 tys l)).
  - exact Hm.
  - apply draws_type_rows; assumption.
  - apply sort_time_perm.
  - apply sort_time_sorted.
Qed.
Print Assumptions C05_model_types_exact.

(* the rows add up to the measure of the union of all analysed kernels *)
Theorem C05_type_rows_partition2 : forall a b lo hi,
  sumZ (map (fun m => cells (fun t => pattern 1 [a; b] t =? m) lo hi) [1; 2; 3]) = cells (fun t => covered a t || covered b t) lo hi.
Proof.
  intros. rewrite cells_partition by (repeat constructor; simpl; intuition lia).
  (* the non-zero patterns of two types are 1..3 *)
  apply cells_ext. intros t _. cbn [pattern]. destruct (covered a t), (covered b t); reflexivity.
Qed.
Print Assumptions C05_type_rows_partition2.

Theorem C05_type_rows_partition3 : forall a b c lo hi,
  sumZ (map (fun m => cells (fun t => pattern 1 [a; b; c] t =? m) lo hi) [1; 2; 3; 4; 5; 6; 7]) =
  cells (fun t => covered a t || covered b t || covered c t) lo hi.
Proof.
  intros. rewrite cells_partition by (repeat constructor; simpl; intuition lia).
  (* ... and of three types 1..7 *)
  apply cells_ext. intros t _. cbn [pattern]. destruct (covered a t), (covered b t), (covered c t); reflexivity.
Qed.
Print Assumptions C05_type_rows_partition3.

(* per-kernel table, for every num_kernels >= 1, every duration ratio k/16 and every list of kernels:
   the reported sums, including the aggregated 'others' row, add up to the total duration of the kernels *)
Theorem C05_sum_conserved : forall numk k16 ks, result_total (aggr numk k16 ks) = sumZ (map snd ks).
Proof.
  intros numk k16 ks. destruct (aggr_spec numk k16 ks) as (others & Hp & Hsnd & _).
  unfold result_total. rewrite Hsnd, <- group_by_name_sum, (sumZ_perm _ _ (Permutation_map g_sum Hp)), map_app, sumZ_app.
  destruct others; cbn; lia.
Qed.
Print Assumptions C05_sum_conserved.

Theorem C05_named_at_most_k : forall numk k16 ks, 1 <= numk -> Z.of_nat (List.length (fst (aggr numk k16 ks))) <= numk.
Proof. intros numk k16 ks. destruct (aggr_spec numk k16 ks) as (_ & _ & _ & H). exact H. Qed.
Print Assumptions C05_named_at_most_k.

(* a named row carries the statistics of the kernels bearing that name *)
Theorem C05_named_row_stats : forall numk k16 ks g, In g (fst (aggr numk k16 ks)) ->
  exists n, In n (map fst ks) /\ g = mk_group ks n /\
            g_sum g = sumZ (kdurs n ks) /\ g_max g = maxZ 0 (kdurs n ks) /\ g_min g = minZ 0 (kdurs n ks) /\
            g_cnt g = Z.of_nat (List.length (kdurs n ks)) /\ kdurs n ks <> [].
Proof.
  intros numk k16 ks g Hg. destruct (aggr_spec numk k16 ks) as (others & Hp & _).
  destruct (group_by_name_In ks g) as (n & Hn & -> & Hne).
  { apply (Permutation_in _ (Permutation_sym Hp)), in_or_app. left. exact Hg. }
  exists n. repeat split; assumption.
Qed.
Print Assumptions C05_named_row_stats.

(* non-vacuity: computation [0,4) and [2,6), communication [3,8), memcpy [7,9); names a (3 kernels), b, c with num_kernels 2 *)
Definition ex05 : list ev :=
  [ mkEv 0 0 1 1 1 (-1) (-1) (-1) (-1) "aten::zeros" "cpu_op";
    mkEv 1 0 4 0 7 7 1 0 (-1) "a" "kernel";
    mkEv 2 2 4 0 8 8 2 0 (-1) "b" "kernel";
    mkEv 3 3 5 0 9 9 3 0 (-1) "ncclKernel_AllReduce" "kernel";
    mkEv 4 7 2 0 7 7 4 0 (-1) "Memcpy DtoH" "gpu_memcpy";
    mkEv 5 10 1 0 7 7 5 0 (-1) "a" "kernel";
    mkEv 6 12 3 0 7 7 6 0 (-1) "a" "kernel";
    mkEv 7 16 1 0 7 7 7 0 (-1) "c" "kernel" ].
Example C05_nonvacuous :
  model_types true ex05 = [8; 1; 3; 1; 0; 1; 0] /\
  encode_aggr ["a"; "b"; "c"] (aggr 2 16 (kernels_of_type COMPUTATION ex05)) = ([[0; 8; 4; 1; 3]; [1; 4; 4; 4; 1]], 1).
Proof. vm_compute. split; reflexivity. Qed.

(* the tie by regeneration: the kernel classification of the model is the chain GENERATED from the current source (get_kernel_type, the codes of
   KernelType, the three regex wrappers; the regular expressions themselves are compared literally on every run) *)
Theorem C05_kernel_types_follow_source : forall n,
  ktype_code (get_kernel_type n) = kernel_type_gen (is_comm_kernel n) (is_memory_kernel n) (is_compute_kernel n).
Proof. exact kernel_type_is_generated. Qed.
Print Assumptions C05_kernel_types_follow_source.

(* resolution independence of the kernel-type table: times multiplied by k > 0 multiply every combination's time by k (the
   percentages are unchanged); this is the statement the whole-microsecond truncation fixed in 41c2c9e violated *)
Theorem C05_types_resolution_independent : forall k mem l, 0 < k ->
  model_types mem (scale_evs k l) = map (Z.mul k) (model_types mem l).
Proof.
  intros k mem l Hk. unfold model_types. rewrite type_rows_scale, sort_time_scale by exact Hk.
  rewrite map_map. apply map_ext. intro m. apply sweep_scale.
Qed.
Print Assumptions C05_types_resolution_independent.

(* the tie by regeneration, second part: the bit of each kernel type in the sweep, the condition under which kernels are aggregated at all
   and the rule that moves a row to 'others' are those READ from _get_gpu_kernel_type_time / _aggr_gpu_kernel_time, whose statement
   sequence the translator accepts in exactly one shape *)
Theorem C05_rules_follow_source : forall q16 numk i c t0 t1 t2 l,
  is_other q16 numk i c = is_other_gen q16 numk i c /\
  type_rows 1 [t0; t1; t2] l =
    rows_of (type_bit_gen 0) (merge_sorted (sort_ts (type_itvs t0 l))) ++
    rows_of (type_bit_gen 1) (merge_sorted (sort_ts (type_itvs t1 l))) ++
    rows_of (type_bit_gen 2) (merge_sorted (sort_ts (type_itvs t2 l))) /\
  (forall numk' k16 ks, aggregates_gen (Z.of_nat (List.length (sort_g (group_by_name ks)))) numk' = false ->
     aggr numk' k16 ks = (sort_g (group_by_name ks), None)).
Proof.
  intros. split; [reflexivity|]. split.
  - cbn [type_rows]. rewrite app_nil_r. reflexivity.
  - intros numk' k16 ks H. unfold aggr. unfold aggregates_gen in H. rewrite H. reflexivity.
Qed.
Print Assumptions C05_rules_follow_source.
