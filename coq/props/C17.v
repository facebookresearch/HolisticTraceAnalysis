(* C17 property theorems: trace diff counts and durations are exact; change classes partition the names. *)
From HTA.lib Require Import Base.
From HTA.model Require Import C17_Model.
From HTA.gen Require Import DiffRules_gen.
From HTA.proof Require Import C17_Proofs.
From HTA.proof Require Import Scale C17_Scale.
Open Scope Z_scope.

Theorem C17_selection_exact : forall frames its dev e,
  In e (sel frames its dev) <-> (exists f, In f frames /\ In e f) /\ In (iter e) its /\ devsel dev e = true.
Proof.
  intros frames its dev e. unfold sel, memZ.
  rewrite filter_In, in_concat, andb_true_iff, memZ_In. tauto.
Qed.
Print Assumptions C17_selection_exact.

(* one row per (short) name occurring in either selection; its counts and durations are those of the matching events *)
Theorem C17_rows_exact : forall short c t,
  NoDup (map d_key (diff_rows short c t)) /\
  (forall k, In k (map d_key (diff_rows short c t)) <-> exists e, In e (c ++ t) /\ key short e = k) /\
  (forall r, In r (diff_rows short c t) ->
     d_cc r = cnt short (d_key r) c /\ d_tc r = cnt short (d_key r) t /\
     d_cd r = tot short (d_key r) c /\ d_td r = tot short (d_key r) t).
Proof.
  intros short c t. rewrite diff_rows_keys. split; [apply keys_NoDup|]. split; [apply in_keys|].
  intros r Hr. apply (in_diff_rows short c t r Hr).
Qed.
Print Assumptions C17_rows_exact.

Theorem C17_row_counts_positive : forall short c t r, In r (diff_rows short c t) ->
  0 <= d_cc r /\ 0 <= d_tc r /\ 0 < d_cc r + d_tc r.
Proof.
  intros short c t r Hr. destruct (in_diff_rows short c t r Hr) as (Hk & -> & -> & _).
  apply in_keys, cnt_pos in Hk. unfold cnt in *. rewrite count_app in Hk.
  split; [apply count_nonneg | split; [apply count_nonneg | exact Hk]].
Qed.
Print Assumptions C17_row_counts_positive.

(* exactly one of the five masks of ops_diff holds for every listed name *)
Theorem C17_classes_partition : forall c t, 0 <= c -> 0 <= t -> 0 < c + t -> sumZ (map b2z (masks c t)) = 1.
Proof.
  (* the masks are boolean combinations of comparisons, and b2z is the Z.b2z that lia knows *)
  intros c t Hc Ht Hs. unfold masks. cbn [map sumZ fold_right]. change b2z with Z.b2z. lia.
Qed.
Print Assumptions C17_classes_partition.

Theorem C17_classes_meaning : forall c t, 0 <= c -> 0 <= t ->
  masks c t = [ (c =? 0) && (0 <? t); (0 <? c) && (t =? 0); (0 <? c) && (c <? t); (0 <? t) && (t <? c); (0 <? t) && (t =? c) ].
Proof.
  intros c t _ _. unfold masks.
  replace (0 <? t - c) with (c <? t) by lia. replace (t - c <? 0) with (t <? c) by lia.
  replace (t - c =? 0) with (t =? c) by lia. reflexivity.
Qed.
Print Assumptions C17_classes_meaning.

Theorem C17_self_compare : forall short c r, In r (diff_rows short c c) ->
  d_tc r - d_cc r = 0 /\ d_td r - d_cd r = 0 /\ masks (d_cc r) (d_tc r) = [false; false; false; false; true].
Proof.
  intros short c r Hr. destruct (C17_row_counts_positive short c c r Hr) as (_ & _ & Hpos).
  destruct (in_diff_rows short c c r Hr) as (_ & Ecc & Etc & Ecd & Etd). rewrite Ecd, Etd, Ecc, Etc in *.
  rewrite !Z.sub_diag, masks_same by lia. auto.
Qed.
Print Assumptions C17_self_compare.

Definition c17 : list ev :=
  [ mkEv 0 0 5 1 1 (-1) (-1) (-1) 3 "aten::add" "cpu_op";
    mkEv 1 6 2 1 1 (-1) (-1) (-1) 3 "aten::add" "cpu_op";
    mkEv 2 9 4 0 7 7 7 1 3 "void at::native::kernel<4, Add<float> >(int)" "kernel";
    mkEv 3 20 1 1 1 (-1) (-1) (-1) 4 "aten::mul" "cpu_op" ].
Definition t17 : list ev :=
  [ mkEv 0 0 7 1 1 (-1) (-1) (-1) 5 "aten::add" "cpu_op";
    mkEv 1 9 3 0 7 7 7 1 5 "void at::native::kernel<8, Add<float> >(int)" "kernel";
    mkEv 2 9 3 0 7 7 7 1 5 "aten::relu" "cpu_op" ].
Example C17_nonvacuous :
  encode_C17 ["at::native::kernel"; "aten::add"; "aten::relu"] true 0 [c17] [3] [t17] [5] =
  [[0; 1; 1; 4; 3; 0; -1; 0; 0; 0; 0; 0; 1]; [1; 2; 1; 7; 7; -1; 0; -1; 0; 0; 0; 1; 0]; [2; 0; 1; 0; 3; 1; 3; 1; 1; 0; 0; 0; 0]].
Proof. vm_compute. reflexivity. Qed.

(* the tie by regeneration: the five class masks and the sign column are those read out of TraceDiff.ops_diff / compare_traces *)
Theorem C17_classes_follow_source : (forall c t, masks c t = masks_gen c t) /\ (forall d, sign d = sign_gen d).
Proof. split; reflexivity. Qed.
Print Assumptions C17_classes_follow_source.

(* resolution independence: durations multiplied by k give the same names with the same counts (hence the same change classes)
   and k times the total durations; selecting rows by iteration and device commutes with the scaling *)
Theorem C17_resolution_independent : forall k short c t frames its dev,
  diff_rows short (scale_evs k c) (scale_evs k t) = map (sdr k) (diff_rows short c t) /\
  sel (map (scale_evs k) frames) its dev = scale_evs k (sel frames its dev).
Proof. intros. split; [apply diff_rows_scale | apply sel_scale]. Qed.
Print Assumptions C17_resolution_independent.
