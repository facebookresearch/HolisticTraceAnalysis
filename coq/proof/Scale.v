(* Resolution independence, shared part: multiplying every time stamp and duration of a frame by a positive constant k.
   A trace with fractional microseconds (ns rounding disabled) whose times share the denominator k is decided by the integer
   models on the scaled trace (the harness uses k = 4: quarter-microsecond cases, framework.resolution).  The files Cxx_Scale.v
   say, function by function, how each model commutes with the scaling; three kinds of fact carry them: a comparison of two
   scaled times is the comparison of the times (compare_scale); sums, differences, minima and maxima are linear; a list
   operation commutes with a map that its test does not see (lib/ListExtra.v).  The fields of a scaled event compute. *)
From HTA.lib Require Import ListExtra Base Intervals Sweep.
Open Scope Z_scope.

Definition scale_ev (k : Z) (e : ev) : ev :=
  mkEv (idx e) (k * ts e) (k * dur e) (pid e) (tid e) (stream e) (corr e) (icorr e) (iter e) (name e) (cat e).

Definition scale_evs (k : Z) (l : list ev) : list ev := map (scale_ev k) l.

Lemma compare_scale k a b : 0 < k -> (k * a ?= k * b) = (a ?= b).
Proof. intro Hk. symmetry. apply Zmult_compare_compat_l, Z.lt_gt, Hk. Qed.

Lemma ltb_scale k a b : 0 < k -> (k * a <? k * b) = (a <? b).
Proof. intro Hk. rewrite !Z.ltb_compare, compare_scale by exact Hk. reflexivity. Qed.

Lemma leb_scale k a b : 0 < k -> (k * a <=? k * b) = (a <=? b).
Proof. intro Hk. rewrite !Z.leb_compare, compare_scale by exact Hk. reflexivity. Qed.

Lemma eqb_scale k a b : 0 < k -> (k * a =? k * b) = (a =? b).
Proof. intro Hk. rewrite !Z.eqb_compare, compare_scale by exact Hk. reflexivity. Qed.

(* against the constant 0 = k * 0 *)
Lemma eqb0_scale k a : 0 < k -> (k * a =? 0) = (a =? 0).
Proof. intro Hk. rewrite <- (eqb_scale k a 0 Hk), Z.mul_0_r. reflexivity. Qed.

Lemma ltb0_scale k a : 0 < k -> (0 <? k * a) = (0 <? a).
Proof. intro Hk. rewrite <- (ltb_scale k 0 a Hk), Z.mul_0_r. reflexivity. Qed.

(* linear operations; for Z.max and Z.min themselves: Z.mul_max_distr_nonneg_l, Z.mul_min_distr_nonneg_l; for sumZ: sumZ_scale *)
Lemma max0_scale k x : 0 <= k -> Z.max 0 (k * x) = k * Z.max 0 x.
Proof. intro Hk. rewrite <- (Z.mul_0_r k) at 1. apply Z.mul_max_distr_nonneg_l, Hk. Qed.

Lemma minZ_scale k d l : 0 <= k -> minZ (k * d) (map (Z.mul k) l) = k * minZ d l.
Proof.
  intro Hk. revert d. induction l as [|x r IH]; intro d; cbn [map minZ]; [reflexivity|].
  rewrite IH. apply Z.mul_min_distr_nonneg_l, Hk.
Qed.

Lemma maxZ_scale k d l : 0 <= k -> maxZ (k * d) (map (Z.mul k) l) = k * maxZ d l.
Proof.
  intro Hk. revert d. induction l as [|x r IH]; intro d; cbn [map maxZ]; [reflexivity|].
  rewrite IH. apply Z.mul_max_distr_nonneg_l, Hk.
Qed.

Lemma minZ0_scale k l : 0 <= k -> minZ 0 (map (Z.mul k) l) = k * minZ 0 l.
Proof. intro Hk. rewrite <- (minZ_scale k 0 l Hk), Z.mul_0_r. reflexivity. Qed.

Lemma maxZ0_scale k l : 0 <= k -> maxZ 0 (map (Z.mul k) l) = k * maxZ 0 l.
Proof. intro Hk. rewrite <- (maxZ_scale k 0 l Hk), Z.mul_0_r. reflexivity. Qed.

Lemma eend_scale k e : eend (scale_ev k e) = k * eend e.
Proof. unfold eend. cbn [scale_ev ts dur]. ring. Qed.

Lemma map_ts_scale k l : map ts (scale_evs k l) = map (Z.mul k) (map ts l).
Proof. unfold scale_evs. rewrite !map_map. reflexivity. Qed.

Lemma map_eend_scale k l : map eend (scale_evs k l) = map (Z.mul k) (map eend l).
Proof. unfold scale_evs. rewrite !map_map. apply map_ext. intro e. apply eend_scale. Qed.

(* intervals and boundary rows: both ends of an interval are times, of a row only the first component *)
Definition sitv (k : Z) (i : itv) : itv := (k * fst i, k * snd i).

Definition srow (k : Z) (r : row) : row := (k * fst r, snd r).

Lemma sort_ts_scale k l : 0 < k -> sort_ts (map (sitv k) l) = map (sitv k) (sort_ts l).
Proof. intro Hk. apply (isort_map insert_ts_ok). intros x y. apply ltb_scale, Hk. Qed.

Lemma merge_aux_scale k cs ce m l : 0 < k ->
  merge_aux (k * cs) (k * ce) (k * m) (map (sitv k) l) = map (sitv k) (merge_aux cs ce m l).
Proof.
  intro Hk. revert cs ce m. induction l as [|[s e] r IH]; intros cs ce m; cbn [map merge_aux sitv fst snd]; [reflexivity|].
  rewrite ltb_scale by exact Hk. rewrite !Z.mul_max_distr_nonneg_l, Z.mul_min_distr_nonneg_l by apply Z.lt_le_incl, Hk.
  destruct (m <? s); cbn [map]; rewrite IH; reflexivity.
Qed.

Lemma merge_sorted_scale k l : 0 < k -> merge_sorted (map (sitv k) l) = map (sitv k) (merge_sorted l).
Proof. intro Hk. destruct l as [|[s e] r]; [reflexivity|]. apply merge_aux_scale, Hk. Qed.

Lemma total_scale k l : total (map (sitv k) l) = k * total l.
Proof.
  unfold total. rewrite map_map, <- sumZ_scale, map_map. f_equal. apply map_ext.
  intro i. cbn [sitv fst snd]. ring.
Qed.

Lemma first_ts_scale k l : first_ts (map (sitv k) l) = k * first_ts l.
Proof. destruct l as [|i r]; cbn [map first_ts]; [ring | reflexivity]. Qed.

Lemma last_end_scale k l : last_end (map (sitv k) l) = k * last_end l.
Proof.
  unfold last_end. replace (0, 0) with (sitv k (0, 0)) at 1 by (unfold sitv; cbn [fst snd]; rewrite Z.mul_0_r; reflexivity).
  rewrite last_map. reflexivity.
Qed.

Lemma rows_of_scale k v l : rows_of v (map (sitv k) l) = map (srow k) (rows_of v l).
Proof. unfold rows_of. rewrite map_app, !map_map. reflexivity. Qed.

Lemma sweep_scale k sel acc rows : sweep sel acc (map (srow k) rows) = k * sweep sel acc rows.
Proof.
  revert acc. induction rows as [|r [|r' rest] IH]; intro acc; [cbn [map sweep]; ring ..|].
  cbn [map] in *. rewrite !sweep_step, IH. cbn [srow fst snd]. destruct (sel (acc + snd r)); ring.
Qed.
