From HTA.lib Require Import ListExtra Base.
From HTA.model Require Import C04_Model.
From HTA.proof Require Import Scale.
Open Scope Z_scope.

Lemma itv_of_scale k e : itv_of (scale_ev k e) = sitv k (itv_of e).
Proof. unfold itv_of, sitv. cbn [scale_ev ts dur fst snd]. rewrite Z.mul_add_distr_l. reflexivity. Qed.

(* the intervals of a selection that does not look at the times *)
Lemma itvs_scale k (p : ev -> bool) l : (forall e, p (scale_ev k e) = p e) ->
  map itv_of (filter p (scale_evs k l)) = map (sitv k) (map itv_of (filter p l)).
Proof.
  intro H. unfold scale_evs. rewrite (filter_map_comm (scale_ev k) p p) by exact H.
  rewrite !map_map. apply map_ext. intro e. apply itv_of_scale.
Qed.

Definition scale4 (k : Z) (x : Z * Z * Z * Z) : Z * Z * Z * Z :=
  let '(a, b, c, d) := x in (k * a, k * b, k * c, k * d).

Lemma breakdown_scale k D C : 0 < k -> breakdown (map (sitv k) D) (map (sitv k) C) = scale4 k (breakdown D C).
Proof.
  intro Hk. unfold breakdown. rewrite !merge_sorted_scale by exact Hk.
  rewrite !total_scale, first_ts_scale, last_end_scale. unfold scale4. rewrite <- !Z.mul_sub_distr_l. reflexivity.
Qed.
