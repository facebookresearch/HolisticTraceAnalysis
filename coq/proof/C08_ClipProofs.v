From HTA.lib Require Import Base.
From HTA.model Require Import C08_Clip.
Open Scope list_scope.
Open Scope Z_scope.

Lemma clip_sub lo hi l e : In e (clip lo hi l) -> In e l.
Proof. unfold clip. intro H. apply filter_In in H. tauto. Qed.

Lemma clip_host_iff lo hi l e : In e l -> stream e = -1 -> (In e (clip lo hi l) <-> lo <= ts e <= hi /\ 0 < dur e).
Proof.
  intros Hin Hs. unfold clip, dev_kept, in_window. rewrite filter_In. apply Z.eqb_eq in Hs. rewrite Hs. cbn [negb andb orb].
  rewrite orb_false_r, !andb_true_iff, !Z.leb_le, Z.ltb_lt. tauto.
Qed.

Theorem clip_device_iff lo hi l d : In d l -> stream d <> -1 ->
  (In d (clip lo hi l) <-> (name d = "Stream Wait Event"%string \/ exists h, partner l d = Some h /\ lo <= ts h <= hi /\ 0 < dur h)).
Proof.
  intros Hin Hs. unfold clip. rewrite filter_In. unfold dev_kept, in_window.
  replace (stream d =? -1) with false by lia. cbn [andb orb negb]. split.
  - intros [_ H]. apply orb_true_iff in H. destruct H as [H|H].
    + right. destruct (partner l d) as [h|]; [|discriminate]. exists h. split; [reflexivity | lia].
    + left. apply String.eqb_eq. exact H.
  - intros [H|[h [Hp H]]]; (split; [exact Hin|]); apply orb_true_iff.
    + right. apply String.eqb_eq. exact H.
    + left. rewrite Hp. lia.
Qed.

(* closure: a kept device row (other than a Stream Wait Event record) has its launching / synchronising host row among the kept
   rows -- so the builder's look-up of the launch call's nodes cannot fail for it *)
Theorem clip_closed lo hi l d : In d (clip lo hi l) -> stream d <> -1 -> name d <> "Stream Wait Event"%string ->
  exists h, In h (clip lo hi l) /\ stream h = -1 /\ icorr h = idx d.
Proof.
  intros H Hs Hn. apply clip_sub in H as Hin. apply (clip_device_iff lo hi l d Hin Hs) in H.
  destruct H as [H|(h & Ep & Hw)]; [contradiction|]. apply find_some in Ep. destruct Ep as [Hh Hp].
  rewrite andb_true_iff, !Z.eqb_eq in Hp. exists h. split; [apply clip_host_iff|]; tauto.
Qed.
