(* The generated _less_than is the lexicographic key order on endpoints of positive-duration events (key_lt); the deprecated
   builder's comparator is the same order but for closing ends of equal duration (key_lt_old; tied to the generated
   compare_events in props/C03.v). *)
From HTA.lib Require Import Base.
From HTA.gen Require Import Cmp_gen.
Open Scope Z_scope.

(* the key order: time; inside an instant closing ends first; opening ends: longer first, then smaller id;
   closing ends: shorter first, then larger id *)
Definition key_lt (x y : ep) : bool :=
  (e_time x <? e_time y) ||
  ((e_time x =? e_time y) &&
   (((e_kind x =? 1) && (e_kind y =? -1)) ||
    ((e_kind x =? -1) && (e_kind y =? -1) && ((e_dur y <? e_dur x) || ((e_dur x =? e_dur y) && (e_idx x <? e_idx y)))) ||
    ((e_kind x =? 1) && (e_kind y =? 1) && ((e_dur x <? e_dur y) || ((e_dur x =? e_dur y) && (e_idx y <? e_idx x)))))).

(* The same order as a proposition: earlier time, or the same instant and a tie-break on (kind, duration, id).  Everything below,
   and every fact about the ends of events in C03_Proofs, is linear arithmetic over this form; deciding the boolean formula itself
   for two or three ends at once is what lia cannot do cheaply. *)
Definition before (T : ep -> ep -> Prop) (x y : ep) : Prop := e_time x < e_time y \/ (e_time x = e_time y /\ T x y).

(* the boolean form both comparators have: a tie-break b that decides T *)
Lemma before_iff (T : ep -> ep -> Prop) (b : bool) x y : (b = true <-> T x y) ->
  (e_time x <? e_time y) || ((e_time x =? e_time y) && b) = true <-> before T x y.
Proof. intro H. unfold before. rewrite orb_true_iff, andb_true_iff, Z.ltb_lt, Z.eqb_eq, H. reflexivity. Qed.

Lemma before_irrefl (T : ep -> ep -> Prop) x : ~ T x x -> ~ before T x x.
Proof. intros HT [H|[_ H]]; [lia | exact (HT H)]. Qed.

Lemma before_trans (T : ep -> ep -> Prop) x y z : (T x y -> T y z -> T x z) -> before T x y -> before T y z -> before T x z.
Proof. unfold before. intros HT [H|[E H]] [H'|[E' H']]; [left; lia .. | right; split; [lia | auto]]. Qed.

Definition tie (x y : ep) : Prop :=
  (e_kind x = 1 /\ e_kind y = -1) \/
  (e_kind x = -1 /\ e_kind y = -1 /\ (e_dur y < e_dur x \/ (e_dur x = e_dur y /\ e_idx x < e_idx y))) \/
  (e_kind x = 1 /\ e_kind y = 1 /\ (e_dur x < e_dur y \/ (e_dur x = e_dur y /\ e_idx y < e_idx x))).

Lemma key_lt_iff x y : key_lt x y = true <-> before tie x y.
Proof. apply before_iff. unfold tie. lia. Qed.

Lemma key_lt_false_iff x y : key_lt x y = false <-> ~ before tie x y.
Proof. rewrite <- key_lt_iff. symmetry. apply not_true_iff_false. Qed.

Theorem key_lt_irrefl x : key_lt x x = false.
Proof. rewrite key_lt_false_iff. apply before_irrefl. unfold tie. lia. Qed.

Theorem key_lt_trans x y z : key_lt x y = true -> key_lt y z = true -> key_lt x z = true.
Proof. rewrite !key_lt_iff. apply before_trans. unfold tie. intros [A|[B|C]] [A'|[B'|C']]; lia. Qed.

Theorem key_lt_asym x y : key_lt x y = true -> key_lt y x = false.
Proof.
  intros Hxy. apply not_true_iff_false. intro Hyx.
  pose proof (key_lt_trans _ _ _ Hxy Hyx) as H. rewrite key_lt_irrefl in H. discriminate.
Qed.

(* total on distinct endpoints: two ends with the same key fields are the same end *)
Theorem key_lt_total x y : (e_kind x = -1 \/ e_kind x = 1) -> (e_kind y = -1 \/ e_kind y = 1) ->
  key_lt x y = false -> key_lt y x = false ->
  e_time x = e_time y /\ e_kind x = e_kind y /\ e_dur x = e_dur y /\ e_idx x = e_idx y.
Proof. intros [Hx|Hx] [Hy|Hy]; rewrite !key_lt_false_iff; unfold before, tie; rewrite Hx, Hy; lia. Qed.

(* an end of a positive-duration event *)
Definition okk (x : ep) : Prop := 0 < e_dur x /\ (e_kind x = -1 \/ e_kind x = 1).

Theorem less_than_is_key_order x y :
  okk x -> okk y -> (e_idx x = e_idx y -> e_time x <> e_time y) ->
  less_than_gen x y = Some (key_lt x y).
Proof.
  intros [Hdx Hkx] [Hdy Hky] Hsame. unfold less_than_gen, cmp_zero_gen, key_lt.
  destruct (e_time x =? e_time y) eqn:Et; cbn [negb]; [|f_equal; lia].
  replace (e_idx x =? e_idx y) with false by lia.
  replace ((e_dur x =? 0) || (e_dur y =? 0)) with false by lia.
  (* the chain now tests the kinds only: evaluate it for the four combinations *)
  destruct Hkx as [Hkx|Hkx], Hky as [Hky|Hky]; rewrite Hkx, Hky; cbn [Z.eqb Pos.eqb andb orb negb];
    destruct (e_dur x =? e_dur y) eqn:Ed; cbn [negb]; f_equal; lia.
Qed.

(* the deprecated builder's comparator: the same key order (with its own kind encoding START = 1, END = -1), except that
   two closing ends of equal duration at one instant are left unordered (the `x.idx < y.idx ... x.idx < y.idx` slip) *)
Definition key_lt_old (x y : ep) : bool :=
  (e_time x <? e_time y) ||
  ((e_time x =? e_time y) &&
   (((e_kind x =? -1) && (e_kind y =? 1)) ||
    ((e_kind x =? 1) && (e_kind y =? 1) && ((e_dur y <? e_dur x) || ((e_dur x =? e_dur y) && (e_idx x <? e_idx y)))) ||
    ((e_kind x =? -1) && (e_kind y =? -1) && (e_dur x <? e_dur y)))).

Definition tie_old (x y : ep) : Prop :=
  (e_kind x = -1 /\ e_kind y = 1) \/
  (e_kind x = 1 /\ e_kind y = 1 /\ (e_dur y < e_dur x \/ (e_dur x = e_dur y /\ e_idx x < e_idx y))) \/
  (e_kind x = -1 /\ e_kind y = -1 /\ e_dur x < e_dur y).

Lemma key_lt_old_iff x y : key_lt_old x y = true <-> before tie_old x y.
Proof. apply before_iff. unfold tie_old. lia. Qed.

Theorem key_lt_old_strict_order :
  (forall x, key_lt_old x x = false) /\
  (forall x y z, key_lt_old x y = true -> key_lt_old y z = true -> key_lt_old x z = true).
Proof.
  split.
  - intro x. apply not_true_iff_false. rewrite key_lt_old_iff. apply before_irrefl. unfold tie_old. lia.
  - intros x y z. rewrite !key_lt_old_iff. apply before_trans. unfold tie_old. intros [A|[B|C]] [A'|[B'|C']]; lia.
Qed.
