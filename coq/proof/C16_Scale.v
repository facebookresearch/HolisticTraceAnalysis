(* C16: resolution independence of the kernel-sequence model: the same instances with the same patterns and counts, GPU and CPU
   durations multiplied by k *)
From HTA.lib Require Import ListExtra Base.
From HTA.model Require Import C03_Model C13_Model C16_Model.
From HTA.proof Require Import Scale C13_Scale C16_More.
Open Scope Z_scope.

Definition sinst (k : Z) (i : inst) : inst := mkInst (i_pat i) (k * i_gpu i) (k * i_cpu i).

Lemma cands_scale k l op : cands (scale_evs k l) op = scale_evs k (cands l op).
Proof. apply filter_map_comm. reflexivity. Qed.

Lemma depth16_scale k l e : 0 < k -> depth16 (scale_evs k l) (scale_ev k e) = depth16 l e.
Proof.
  intro Hk. unfold depth16. rewrite C13_parent_map_scale by exact Hk. unfold scale_evs. rewrite map_length. reflexivity.
Qed.

(* the kernel totals of the trace's own call graph, as nk16 and ks16 ask for them *)
Lemma trace_kinfo_scale k l i : 0 < k ->
  kinfo_rel k
    (kinfo_of (S (List.length l)) l (map fst (dev_edges l)) (parent_map l) (2 * maxZ 0 (map ts l)) i)
    (kinfo_of (S (List.length (scale_evs k l))) (scale_evs k l) (map fst (dev_edges (scale_evs k l))) (parent_map (scale_evs k l))
              (2 * maxZ 0 (map ts (scale_evs k l))) i).
Proof.
  intro Hk. rewrite C13_parent_map_scale, dev_edges_scale by exact Hk.
  rewrite map_ts_scale, maxZ0_scale, Z.mul_shuffle3 by apply Z.lt_le_incl, Hk.
  unfold scale_evs. rewrite map_length. apply kinfo_of_scale, Hk.
Qed.

Lemma nk16_scale k l e : 0 < k -> nk16 (scale_evs k l) (scale_ev k e) = nk16 l e.
Proof.
  intro Hk. destruct (kinfo_rel_count_sum _ _ _ (trace_kinfo_scale k l (idx e) Hk)) as [Hc _].
  unfold nk16. cbn [scale_ev idx]. rewrite Hc, C13_parent_map_scale by exact Hk. reflexivity.
Qed.

Lemma ks16_scale k l e : 0 < k -> ks16 (scale_evs k l) (scale_ev k e) = k * ks16 l e.
Proof.
  intro Hk. destruct (kinfo_rel_count_sum _ _ _ (trace_kinfo_scale k l (idx e) Hk)) as [_ Hs].
  unfold ks16. cbn [scale_ev idx]. rewrite Hs, C13_parent_map_scale by exact Hk.
  destruct (lookupZ (idx e) (parent_map l)); [reflexivity | symmetry; apply Z.mul_0_r].
Qed.

Lemma sort_k_scale k l : 0 < k -> sort_k (scale_evs k l) = scale_evs k (sort_k l).
Proof. intro Hk. apply (isort_map insert_k_ok). intros x y. apply ltb_scale, Hk. Qed.

Lemma ev_of_scale k l i : ev_of (scale_evs k l) i = scale_evs k (ev_of l i).
Proof.
  unfold ev_of, scale_evs. rewrite (find_map (scale_ev k)) by reflexivity.
  destruct (find (fun e => idx e =? i) l); reflexivity.
Qed.

Lemma kernels_under_scale k l r : 0 < k -> kernels_under (scale_evs k l) (scale_ev k r) = scale_evs k (kernels_under l r).
Proof.
  intro Hk. unfold kernels_under. rewrite C13_parent_map_scale, dev_edges_scale by exact Hk.
  unfold scale_evs. rewrite map_length, map_flat_map. apply flat_map_ext, ev_of_scale.
Qed.

Lemma inst_of_scale k l r : 0 < k -> inst_of (scale_evs k l) (scale_ev k r) = sinst k (inst_of l r).
Proof.
  intro Hk. unfold inst_of, sinst. cbn [i_pat i_gpu i_cpu].
  rewrite kernels_under_scale, sort_k_scale, nk16_scale, ks16_scale by exact Hk.
  unfold scale_evs. rewrite map_map. cbn [scale_ev name dur].
  destruct (nk16 l r <=? 0); [rewrite Z.mul_0_r|]; reflexivity.
Qed.

Lemma chosen_scale k l minlen c0 cand : 0 < k ->
  chosen (scale_evs k l) minlen (scale_ev k c0) (scale_evs k cand) = map (sinst k) (chosen l minlen c0 cand).
Proof.
  intro Hk. unfold chosen. change (scale_evs k cand) with (map (scale_ev k) cand). rewrite depth16_scale, !map_map by exact Hk.
  rewrite (map_ext _ (depth16 l)) by (intro e; apply depth16_scale, Hk).
  rewrite (filter_map_comm (scale_ev k) _
             (fun e => (depth16 l e =? minZ (depth16 l c0) (map (depth16 l) cand)) && (minlen <=? nk16 l e)))
    by (intro e; rewrite depth16_scale, nk16_scale by exact Hk; reflexivity).
  rewrite map_map. apply map_ext. intro r. apply inst_of_scale, Hk.
Qed.

Lemma instances_scale k l op minlen : 0 < k ->
  instances (scale_evs k l) op minlen = map (sinst k) (instances l op minlen).
Proof.
  intro Hk. rewrite !instances_chosen, cands_scale. destruct (cands l op) as [|c0 cs]; [reflexivity|].
  apply (chosen_scale k l minlen c0 (c0 :: cs) Hk).
Qed.

Definition spat (k : Z) (r : list string * Z * Z * Z) : list string * Z * Z * Z :=
  let '(p, c, g, u) := r in (p, c, k * g, k * u).

Lemma patterns_scale k is : patterns (map (sinst k) is) = map (spat k) (patterns is).
Proof.
  unfold patterns. rewrite !map_map. apply map_ext.   (* over the same patterns: i_pat (sinst k i) computes to i_pat i *)
  intro p. unfold spat, pat_count, pat_gpu, pat_cpu, count.
  rewrite filter_map_swap, map_length, <- !sumZ_scale, !map_map. reflexivity.
Qed.
