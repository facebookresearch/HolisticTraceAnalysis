(* C12: iteration numbers and the trimming rule at every resolution: multiplying the times by k > 0 changes no iteration number
   and keeps exactly the same rows *)
From HTA.lib Require Import ListExtra Base.
From HTA.model Require Import Loader_Model.
From HTA.proof Require Import Scale.
Open Scope Z_scope.

Lemma step_of_scale k steps t : 0 < k -> step_of (scale_evs k steps) (k * t) = step_of steps t.
Proof.
  intro Hk. unfold step_of. generalize (-1). induction steps as [|s r IH]; intro acc; [reflexivity|].
  cbn [scale_evs map fold_left scale_ev ts dur name].
  rewrite <- Z.mul_add_distr_l, leb_scale, ltb_scale by exact Hk. apply IH.
Qed.

Lemma step_rows_scale k l : step_rows (scale_evs k l) = scale_evs k (step_rows l).
Proof. apply filter_map_comm. reflexivity. Qed.

Lemma iter_of_scale k l e : 0 < k -> iter_of (scale_evs k l) (scale_ev k e) = iter_of l e.
Proof.
  intro Hk. unfold iter_of. rewrite step_rows_scale. cbn [scale_ev stream icorr ts].
  destruct (stream e <? 0); [apply step_of_scale, Hk|].
  destruct (0 <? stream e), (0 <? icorr e); try reflexivity.
  unfold scale_evs. rewrite (find_map (scale_ev k)) by reflexivity.
  destruct (find _ l) as [p|]; cbn [option_map]; [apply step_of_scale, Hk | reflexivity].
Qed.

Lemma add_iter_scale k l : 0 < k -> add_iter (scale_evs k l) = scale_evs k (add_iter l).
Proof.
  intro Hk. unfold add_iter, scale_evs. rewrite !map_map. apply map_ext. intro e.
  rewrite <- (iter_of_scale k l e Hk). reflexivity.
Qed.

Lemma host_steps_scale k l : host_steps (scale_evs k l) = scale_evs k (host_steps l).
Proof. apply filter_map_comm. reflexivity. Qed.

Lemma keep_host_scale k incl l e : 0 < k -> keep_host incl (scale_evs k l) (scale_ev k e) = keep_host incl l e.
Proof.
  intro Hk. unfold keep_host.
  rewrite host_steps_scale, map_ts_scale, map_eend_scale, !maxZ0_scale by apply Z.lt_le_incl, Hk. cbn [scale_ev ts].
  destruct incl; [rewrite leb_scale by exact Hk | rewrite ltb_scale by exact Hk]; reflexivity.
Qed.

Lemma kept_host_scale k incl l : 0 < k -> kept_host incl (scale_evs k l) = scale_evs k (kept_host incl l).
Proof. intro Hk. apply filter_map_comm. intro e. apply keep_host_scale, Hk. Qed.

Lemma kept_dev_scale k incl l : 0 < k -> kept_dev incl (scale_evs k l) = scale_evs k (kept_dev incl l).
Proof.
  intro Hk. unfold kept_dev. rewrite kept_host_scale by exact Hk. unfold scale_evs.
  rewrite filter_map_swap. apply filter_map_comm. intro g. rewrite existsb_map. reflexivity.
Qed.

Lemma trim_scale k incl l : 0 < k -> trim incl (scale_evs k l) = scale_evs k (trim incl l).
Proof.
  intro Hk. unfold trim. rewrite host_steps_scale, kept_dev_scale, kept_host_scale by exact Hk.
  unfold scale_evs. rewrite map_length, <- map_app.
  destruct (Z.of_nat (List.length (host_steps l)) <? 2); reflexivity.
Qed.
