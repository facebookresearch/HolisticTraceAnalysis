From HTA.lib Require Import Base ListExtra.
From HTA.model Require Import Loader_Model.
Open Scope Z_scope.

(* "a correlation id pairs at most one host call with one device activity": an event has at most one
   opposite-side event with its correlation id *)
Definition wf_corr (l : list ev) : Prop :=
  forall e p q, In e l -> In p l -> In q l -> partner_b e p = true -> partner_b e q = true -> p = q.

Lemma partner_b_spec e p :
  partner_b e p = true <-> corr p = corr e /\ corr e <> -1 /\ is_dev p <> is_dev e.
Proof.
  unfold partner_b. rewrite !andb_true_iff, Z.eqb_eq, negb_true_iff, Z.eqb_neq.
  destruct (is_dev p), (is_dev e); simpl; intuition congruence.
Qed.

Lemma partner_b_sym e p : partner_b e p = true -> partner_b p e = true.
Proof. rewrite !partner_b_spec. intros [H1 [H2 H3]]. repeat split; congruence. Qed.

Lemma partners_agree e p q :
  partner_b e p = true -> partner_b e q = true -> corr p = corr q /\ corr p <> -1 /\ is_dev p = is_dev q.
Proof.
  rewrite !partner_b_spec. intros [Cp [Ce Sp]] [Cq [_ Sq]]. repeat split; [congruence | congruence |].
  destruct (is_dev p), (is_dev q), (is_dev e); congruence.
Qed.

(* sufficient for wf_corr: among the rows that carry an id, (correlation id, side) is a key *)
Lemma wf_corr_by_key l :
  NoDup (map (fun p => (corr p, is_dev p)) (filter (fun p => negb (corr p =? -1)) l)) -> wf_corr l.
Proof.
  intros Hkey e p q _ Hp Hq Bp Bq. destruct (partners_agree e p q Bp Bq) as [Hc [Hid Hs]].
  apply (NoDup_map_eq _ _ p q Hkey).
  - apply filter_In. split; [exact Hp|]. apply negb_true_iff, Z.eqb_neq. exact Hid.
  - apply filter_In. split; [exact Hq|]. apply negb_true_iff, Z.eqb_neq. rewrite <- Hc. exact Hid.
  - f_equal; assumption.
Qed.

(* link_of: the row id of the first partner in the frame, the fallback if there is none *)
Lemma link_of_cases l e :
  (exists p, In p l /\ partner_b e p = true /\ link_of l e = idx p) \/
  ((forall p, In p l -> partner_b e p = false) /\ link_of l e = Z.min (corr e) 0).
Proof.
  unfold link_of. destruct (find (partner_b e) l) as [p|] eqn:F.
  - left. apply find_some in F. exists p. tauto.
  - right. split; [exact (find_none _ _ F) | reflexivity].
Qed.

(* under wf_corr the first partner is the only one *)
Theorem link_partner l e p :
  wf_corr l -> In e l -> In p l -> partner_b e p = true -> link_of l e = idx p.
Proof.
  intros Hwf He Hp Hb. destruct (link_of_cases l e) as [[p' [Hp' [Hb' E]]] | [Hn _]].
  - rewrite E. f_equal. apply (Hwf e); assumption.
  - rewrite (Hn p Hp) in Hb. discriminate.
Qed.
