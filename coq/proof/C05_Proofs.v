From Coq Require Import Permutation.
From HTA.lib Require Import ListExtra Base Cells Intervals Sweep.
From HTA.model Require Import C04_Model C05_Model.
From HTA.proof Require Import C04_Proofs.
Open Scope list_scope.
Open Scope Z_scope.

(* the bit pattern running at cell t: bit i set iff some interval of the i-th analysed type covers t *)
Fixpoint pattern (v : Z) (sets : list (list itv)) (t : Z) : Z :=
  match sets with
  | [] => 0
  | s :: r => v * b2z (covered s t) + pattern (2 * v) r t
  end.

(* boundary rows of already merged (separated) interval sets *)
Fixpoint rows_of_sets (v : Z) (sets : list (list itv)) : list row :=
  match sets with
  | [] => []
  | s :: r => rows_of v s ++ rows_of_sets (2 * v) r
  end.

Lemma draws_rows_of_sets sets lo hi : forall v,
  Forall (fun s => separated s /\ forall i, In i s -> lo <= fst i /\ snd i <= hi) sets ->
  draws (rows_of_sets v sets) (pattern v sets) lo hi.
Proof.
  induction sets as [|s r IH]; intros v Hs; [apply draws_nil|].
  inversion Hs as [|? ? [H1 H2] Hr]; subst.
  exact (draws_app _ _ _ _ lo hi (draws_rows_of v s lo hi H1 H2) (IH (2 * v) Hr)).
Qed.

(* the model's rows draw the pattern of the raw kernels' intervals *)
Lemma draws_type_rows l lo hi : durs_nonneg l ->
  (forall e, In e l -> on_device e = true -> lo <= ts e /\ ts e + dur e <= hi) -> forall tys v,
  draws (type_rows v tys l) (pattern v (map (fun ty => type_itvs ty l) tys)) lo hi.
Proof.
  intros Hd Hb. induction tys as [|ty r IH]; intro v; [apply draws_nil|].
  refine (draws_app _ _ _ _ lo hi
            (draws_merged v (type_itvs ty l) _ lo hi _ (sort_ts_perm _) (sort_ts_sorted _) _) (IH (2 * v))).
  - apply itvs_wf, Hd.
  - intros i Hi. apply in_map_iff in Hi. destruct Hi as [e [<- He]]. apply filter_In in He.
    destruct He as [He Hf]. apply andb_prop in Hf. apply Hb; tauto.
Qed.

(* for EVERY time-sorted permutation rows' of rows that draw f: the time credited to m <> 0 is the number of cells where f = m *)
Lemma pattern_time_draws rows rows' f m lo hi :
  m <> 0 -> draws rows f lo hi -> Permutation rows rows' -> sorted_time rows' ->
  pattern_time rows' m = cells (fun t => f t =? m) lo hi.
Proof.
  intros Hm Hd Hp Hs. unfold pattern_time.
  rewrite (sweep_draws (Z.eqb m) rows rows' f lo hi Hd) by (assumption || apply Z.eqb_neq, Hm).
  apply cells_ext. intros t _. apply Z.eqb_sym.
Qed.

Lemma dedup_s_ok : is_dedup String.eqb dedup_s.
Proof. split; reflexivity. Qed.

Lemma insert_g_ok : is_insert (fun x y => g_sum y <? g_sum x) insert_g.
Proof. split; reflexivity. Qed.

Lemma group_by_name_sum ks : sumZ (map g_sum (group_by_name ks)) = sumZ (map snd ks).
Proof.
  unfold group_by_name. rewrite map_map.
  apply (sum_by_key String.eqb fst snd _ ks String.eqb_eq).
  - apply (dedup_NoDup String.eqb_eq dedup_s_ok).
  - intros k Hk. apply (dedup_In String.eqb_eq dedup_s_ok), in_map, Hk.
Qed.

Lemma group_by_name_In ks g :
  In g (group_by_name ks) -> exists n, In n (map fst ks) /\ g = mk_group ks n /\ kdurs n ks <> [].
Proof.
  intro Hin. apply in_map_iff in Hin. destruct Hin as [n [Hg Hn]].
  rewrite (dedup_In String.eqb_eq dedup_s_ok) in Hn.
  exists n. split; [exact Hn|]. split; [symmetry; exact Hg|].
  apply in_map_iff in Hn. destruct Hn as [k [Hk Hin]]. unfold kdurs. intro E.
  assert (H : In (snd k) (map snd (filter (fun k0 => String.eqb (fst k0) n) ks))).
  { apply in_map, filter_In. split; [exact Hin | apply String.eqb_eq; exact Hk]. }
  rewrite E in H. destruct H.
Qed.

(* bucket only partitions its input *)
Lemma bucket_perm q numk : forall gs cs i, List.length cs = List.length gs ->
  Permutation gs (fst (bucket q numk i gs cs) ++ snd (bucket q numk i gs cs)).
Proof.
  induction gs as [|g gr IH]; intros cs i Hlen; [destruct cs; constructor|].
  destruct cs as [|c cr]; [discriminate|]. cbn [bucket]. specialize (IH cr (i + 1) (eq_add_S _ _ Hlen)).
  destruct (bucket q numk (i + 1) gr cr) as [named others]. cbn [fst snd] in *.
  destruct (is_other q numk i c); cbn [fst snd].
  - apply Permutation_cons_app. exact IH.
  - cbn. apply perm_skip. exact IH.
Qed.

Lemma bucket_named_len q numk : forall gs cs i,
  Z.of_nat (List.length (fst (bucket q numk i gs cs))) <= Z.max 0 (numk - i).
Proof.
  induction gs as [|g gr IH]; intros cs i; [cbn; lia|]. destruct cs as [|c cr]; [cbn; lia|]. cbn [bucket].
  specialize (IH cr (i + 1)). destruct (bucket q numk (i + 1) gr cr) as [named others]. cbn [fst] in *.
  unfold is_other. destruct (q <? 16 * c) eqn:E1; cbn [orb fst]; [lia|]. destruct (numk <=? i) eqn:E2; cbn [fst]; [lia|].
  cbn [List.length]. lia.
Qed.

Lemma cumsums_length acc l : List.length (cumsums acc l) = List.length l.
Proof. revert acc. induction l as [|x l IH]; intro acc; simpl; [reflexivity | rewrite IH; reflexivity]. Qed.

Definition result_total (r : list grp * option Z) : Z :=
  sumZ (map g_sum (fst r)) + match snd r with Some s => s | None => 0 end.

(* what aggr does to the groups: the named rows and the rows summed up as 'others' are a rearrangement of all groups,
   and there are at most num_kernels named rows *)
Lemma aggr_spec numk k16 ks : exists others,
  Permutation (group_by_name ks) (fst (aggr numk k16 ks) ++ others) /\
  snd (aggr numk k16 ks) = match others with [] => None | _ => Some (sumZ (map g_sum others)) end /\
  (1 <= numk -> Z.of_nat (List.length (fst (aggr numk k16 ks))) <= numk).
Proof.
  unfold aggr. pose proof (isort_perm insert_g_ok (group_by_name ks)) as Hp. fold (sort_g (group_by_name ks)) in Hp.
  set (gs := sort_g (group_by_name ks)) in *. set (q := quantile16 (cumsums 0 gs) k16).
  destruct (numk <? Z.of_nat (List.length gs)) eqn:E.
  - pose proof (bucket_perm q numk gs (cumsums 0 gs) 0 (cumsums_length 0 gs)) as Hb.
    pose proof (bucket_named_len q numk gs (cumsums 0 gs) 0) as Hl.
    destruct (bucket q numk 0 gs (cumsums 0 gs)) as [named others]. cbn [fst snd] in *.
    exists others. split; [exact (perm_trans Hp Hb)|]. split; [reflexivity | lia].
  - exists []. cbn [fst snd]. rewrite app_nil_r. split; [exact Hp|]. split; [reflexivity | lia].
Qed.
