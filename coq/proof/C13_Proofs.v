(* C13: a table of call-graph rows that satisfies the LOCAL equations reports, for every host node, the aggregates of ALL
   device activities among its descendants.  Induction on the height column. *)
From HTA.lib Require Import Base ListExtra.
Open Scope list_scope.
Open Scope Z_scope.

Record node := mkNode {
  n_id : Z; n_parent : Z; n_dev : bool; n_ts : Z; n_dur : Z;
  n_depth : Z; n_height : Z; n_nk : Z; n_ks : Z; n_kf : Z; n_kl : Z; n_sp : Z }.

Definition kids (T : list node) (i : Z) : list node := filter (fun c => n_parent c =? i) T.
Definition lookup_node (T : list node) (i : Z) : option node := find (fun c => n_id c =? i) T.

Definition is_min (m : Z) (l : list Z) : Prop := In m l /\ Forall (fun x => m <= x) l.
Definition is_max (m : Z) (l : list Z) : Prop := In m l /\ Forall (fun x => x <= m) l.

(* the local equations of one row *)
Definition local_ok (T : list node) (n : node) : Prop :=
  (match lookup_node T (n_parent n) with
   | Some p => n_depth n = n_depth p + 1
   | None => n_depth n = 0
   end) /\
  if n_dev n then
    n_height n = 0 /\ n_nk n = 1 /\ n_ks n = n_dur n /\ n_kf n = n_ts n /\ n_kl n = n_ts n + n_dur n /\ n_sp n = n_dur n
  else
    let ch := kids T (n_id n) in
    let act := filter (fun c => 0 <? n_nk c) ch in
    n_height n = 1 + maxZ 0 (0 :: map n_height ch) /\
    n_nk n = sumZ (map n_nk ch) /\ n_ks n = sumZ (map n_ks ch) /\
    (match act with
     | [] => n_kf n = -1 /\ n_kl n = -1 /\ n_sp n = 0
     | _ => is_min (n_kf n) (map n_kf act) /\ is_max (n_kl n) (map n_kl act) /\ n_sp n = n_kl n - n_kf n
     end).

(* the device activities among the descendants of n, by unfolding the child relation h times *)
Fixpoint klist (T : list node) (h : nat) (n : node) : list node :=
  match h with
  | O => []
  | S h' => flat_map (fun c => if n_dev c then [c] else klist T h' c) (kids T (n_id n))
  end.

(* what the property asks of a host row, in terms of the list K of device activities beneath it *)
Definition aggregates (n : node) (K : list node) : Prop :=
  n_nk n = Z.of_nat (List.length K) /\ n_ks n = sumZ (map n_dur K) /\
  match K with
  | [] => n_kf n = -1 /\ n_kl n = -1 /\ n_sp n = 0
  | _ => is_min (n_kf n) (map n_ts K) /\ is_max (n_kl n) (map (fun k => n_ts k + n_dur k) K) /\ n_sp n = n_kl n - n_kf n
  end.

(* m is a least element of l for the order le.  is_min m is least Z.le m, and is_max m is least for the reversed order,
   both by conversion, so each fact about extrema is stated once. *)
Section Least.
  Variable le : Z -> Z -> Prop.
  Definition least (m : Z) (l : list Z) : Prop := In m l /\ Forall (le m) l.

  Lemma least_singleton x : le x x -> least x [x].
  Proof. intro H. split; [left; reflexivity | repeat constructor; exact H]. Qed.

  (* the least of the parts' least elements is the least element of the concatenation *)
  Lemma least_flat_map {A} (f : A -> list Z) (key : A -> Z) l m : (forall x y z, le x y -> le y z -> le x z) ->
    (forall a, In a l -> least (key a) (f a)) -> least m (map key l) -> least m (flat_map f l).
  Proof.
    intros Htr Hparts [Hin Hall]. rewrite Forall_map, Forall_forall in Hall. split.
    - apply in_map_iff in Hin. destruct Hin as [a [E Ha]]. subst m.
      apply in_flat_map. exists a. split; [exact Ha | apply Hparts, Ha].
    - apply Forall_flat_map, Forall_forall. intros a Ha.
      eapply Forall_impl; [|apply Hparts, Ha]. intro x. apply Htr, Hall, Ha.
  Qed.

  Lemma leastb_spec (leb : Z -> Z -> bool) m l : (forall x, leb m x = true -> le m x) ->
    existsb (Z.eqb m) l && forallb (leb m) l = true -> least m l.
  Proof.
    intros Hleb H. apply andb_true_iff in H. destruct H as [Hex Hall]. split.
    - apply memZ_In, Hex.
    - rewrite forallb_forall in Hall. apply Forall_forall. intros x Hx. apply Hleb, Hall, Hx.
  Qed.
End Least.

Definition rev_le (x y : Z) : Prop := y <= x.
Lemma rev_le_trans x y z : rev_le x y -> rev_le y z -> rev_le x z.
Proof. unfold rev_le. lia. Qed.

Lemma host_height_gt T n x : local_ok T n -> n_dev n = false -> In x (0 :: map n_height (kids T (n_id n))) -> x < n_height n.
Proof.
  intros [_ Hl] Hd Hx. rewrite Hd in Hl. destruct Hl as [Hh _]. apply (maxZ_ge 0) in Hx. lia.
Qed.

(* a row that counts something stands above a non-empty list, whose extrema it reports *)
Lemma aggregates_extrema c K : aggregates c K -> 0 < n_nk c ->
  is_min (n_kf c) (map n_ts K) /\ is_max (n_kl c) (map (fun k => n_ts k + n_dur k) K).
Proof. intros [Hnk [_ Hext]] Hpos. destruct K; [cbn in Hnk; lia | tauto]. Qed.

(* extrema exist only of a non-empty list *)
Lemma aggregates_of_extrema n K : n_nk n = Z.of_nat (List.length K) -> n_ks n = sumZ (map n_dur K) ->
  is_min (n_kf n) (map n_ts K) -> is_max (n_kl n) (map (fun k => n_ts k + n_dur k) K) -> n_sp n = n_kl n - n_kf n ->
  aggregates n K.
Proof.
  intros Hnk Hks Hmin Hmax Hsp. split; [exact Hnk|]. split; [exact Hks|].
  destruct K; [destruct Hmin as [[] _] | auto].
Qed.

(* a device row reports itself *)
Lemma device_aggregates T c : local_ok T c -> n_dev c = true -> aggregates c [c].
Proof.
  intros [_ Hl] Hd. rewrite Hd in Hl. destruct Hl as (_ & Hnk & Hks & Hkf & Hkl & Hsp).
  split; [exact Hnk|]. split; [cbn; lia|]. cbn [map]. rewrite Hkf, Hkl.
  split; [apply (least_singleton Z.le), Z.le_refl|]. split; [apply (least_singleton rev_le), Z.le_refl | lia].
Qed.

(* a host row whose children each report a list reports their concatenation: counts and sums add up, and the extrema are
   those of the children that launch something *)
Lemma host_aggregates T n (P : node -> list node) : local_ok T n -> n_dev n = false ->
  (forall c, In c (kids T (n_id n)) -> aggregates c (P c)) -> aggregates n (flat_map P (kids T (n_id n))).
Proof.
  intros [_ Hl] Hd Hch. rewrite Hd in Hl. cbv zeta in Hl. destruct Hl as [_ [Hnk [Hks Hext]]].
  set (ch := kids T (n_id n)) in *.
  assert (Hcount : n_nk n = Z.of_nat (List.length (flat_map P ch))).
  { rewrite Hnk, length_sumZ, sumZ_flat_map. f_equal. apply map_ext_in. intros c Hc. rewrite <- length_sumZ. apply Hch, Hc. }
  assert (Hsum : n_ks n = sumZ (map n_dur (flat_map P ch))).
  { rewrite Hks, sumZ_flat_map. f_equal. apply map_ext_in. intros c Hc. apply Hch, Hc. }
  set (act := filter (fun c => 0 <? n_nk c) ch) in *.
  assert (Hflat : flat_map P ch = flat_map P act).
  { apply flat_map_filter_empty. intros c Hc Hz. destruct (Hch c Hc) as [Hlen _]. destruct (P c); [reflexivity | cbn in Hlen; lia]. }
  assert (Hact : forall c, In c act -> is_min (n_kf c) (map n_ts (P c)) /\ is_max (n_kl c) (map (fun k => n_ts k + n_dur k) (P c))).
  { intros c Hc. apply filter_In in Hc. destruct Hc as [Hc Hpos]. apply aggregates_extrema; [apply Hch, Hc | lia]. }
  rewrite Hflat in *. destruct act as [|a0 act'].
  - exact (conj Hcount (conj Hsum Hext)).
  - destruct Hext as [Hmin [Hmax Hsp]]. apply aggregates_of_extrema; [exact Hcount | exact Hsum | | | exact Hsp]; rewrite map_flat_map.
    + apply (least_flat_map Z.le _ n_kf _ _ Z.le_trans); [|exact Hmin]. intros c Hc. apply Hact, Hc.
    + apply (least_flat_map rev_le _ n_kl _ _ rev_le_trans); [|exact Hmax]. intros c Hc. apply Hact, Hc.
Qed.

Section Table.
  Variable T : list node.
  Hypothesis Hlocal : forall n, In n T -> local_ok T n.

  Lemma kids_in n c : In c (kids T (n_id n)) -> In c T.
  Proof. unfold kids. intro H. apply filter_In in H. tauto. Qed.

  Lemma aggregates_by_height : forall h n, In n T -> n_dev n = false -> n_height n <= Z.of_nat h -> aggregates n (klist T h n).
  Proof.
    induction h as [|h IH]; intros n Hn Hd Hh.
    - pose proof (host_height_gt T n 0 (Hlocal n Hn) Hd (or_introl eq_refl)). lia.
    - apply (host_aggregates T n (fun c => if n_dev c then [c] else klist T h c) (Hlocal n Hn) Hd). intros c Hc.
      pose proof (kids_in n c Hc) as HcT. destruct (n_dev c) eqn:Dc.
      + exact (device_aggregates T c (Hlocal c HcT) Dc).
      + apply IH; [exact HcT | exact Dc|].
        pose proof (host_height_gt T n _ (Hlocal n Hn) Hd (or_intror (in_map n_height _ c Hc))). lia.
  Qed.

  Theorem local_equations_sound n : In n T -> n_dev n = false -> aggregates n (klist T (Z.to_nat (n_height n)) n).
  Proof.
    intros Hn Hd. apply aggregates_by_height; [exact Hn | exact Hd | lia].
  Qed.
End Table.

(* the boolean checker, evaluated on every implementation table *)
Definition is_minb (m : Z) (l : list Z) : bool := existsb (Z.eqb m) l && forallb (fun x => m <=? x) l.
Definition is_maxb (m : Z) (l : list Z) : bool := existsb (Z.eqb m) l && forallb (fun x => x <=? m) l.

Definition local_okb (T : list node) (n : node) : bool :=
  (match lookup_node T (n_parent n) with
   | Some p => n_depth n =? n_depth p + 1
   | None => n_depth n =? 0
   end) &&
  (if n_dev n then
     (n_height n =? 0) && (n_nk n =? 1) && (n_ks n =? n_dur n) && (n_kf n =? n_ts n) && (n_kl n =? n_ts n + n_dur n) && (n_sp n =? n_dur n)
   else
     let ch := kids T (n_id n) in
     let act := filter (fun c => 0 <? n_nk c) ch in
     (n_height n =? 1 + maxZ 0 (0 :: map n_height ch)) && (n_nk n =? sumZ (map n_nk ch)) && (n_ks n =? sumZ (map n_ks ch)) &&
     (match act with
      | [] => (n_kf n =? -1) && (n_kl n =? -1) && (n_sp n =? 0)
      | _ => is_minb (n_kf n) (map n_kf act) && is_maxb (n_kl n) (map n_kl act) && (n_sp n =? n_kl n - n_kf n)
      end)).

Lemma is_minb_spec m l : is_minb m l = true -> is_min m l.
Proof. apply (leastb_spec Z.le Z.leb). intro x. apply Z.leb_le. Qed.
Lemma is_maxb_spec m l : is_maxb m l = true -> is_max m l.
Proof. apply (leastb_spec rev_le (fun m x => x <=? m)). intro x. apply Z.leb_le. Qed.

Theorem local_okb_sound T n : local_okb T n = true -> local_ok T n.
Proof.
  unfold local_okb, local_ok. rewrite andb_true_iff. intros [H1 H2]. split.
  - destruct (lookup_node T (n_parent n)); lia.
  - destruct (n_dev n).
    + lia.
    + rewrite !andb_true_iff in H2. destruct H2 as [[[Ha Hb] Hc] Hd].
      split; [lia|]. split; [lia|]. split; [lia|].
      destruct (filter (fun c => 0 <? n_nk c) (kids T (n_id n))) as [|a act] eqn:E.
      * lia.
      * rewrite !andb_true_iff in Hd. destruct Hd as [[Hmin Hmax] Hsp]. split; [apply is_minb_spec; exact Hmin|].
        split; [apply is_maxb_spec; exact Hmax | lia].
Qed.

Definition check_table (T : list node) : bool := forallb (local_okb T) T.

