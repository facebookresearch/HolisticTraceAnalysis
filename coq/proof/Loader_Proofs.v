From Coq Require Import QArith Qround Sorted.
From HTA.lib Require Import Base.
From HTA.model Require Import Loader_Model.
Open Scope Z_scope.

Lemma sorted_lt_nodup l : StronglySorted Z.lt l -> NoDup l.
Proof.
  induction 1 as [|x l _ IH Hall]; constructor; [|exact IH].
  intro Hin. rewrite Forall_forall in Hall. specialize (Hall x Hin). lia.
Qed.

(* parsing: the rows are the complete entries, numbered by their position counted from i *)
Lemma parse_from_spec f : forall i e,
  In e (parse_from i f) <->
  exists k r, nth_error f k = Some r /\ complete r = true /\ e = to_ev (i + Z.of_nat k) r.
Proof.
  induction f as [|r f IH]; intros i e; simpl.
  - split; [intros [] | intros [k [r [H _]]]; destruct k; discriminate].
  - rewrite in_app_iff, IH. split.
    + intros [H | [k [r' [Hn [Hc He]]]]].
      * destruct (complete r) eqn:C; [|destruct H]. destruct H as [H|[]]. subst e.
        exists O, r. simpl. repeat split; auto. f_equal. lia.
      * exists (S k), r'. simpl. repeat split; auto. rewrite He. f_equal. lia.
    + intros [k [r' [Hn [Hc He]]]]. destruct k as [|k]; simpl in Hn.
      * inversion Hn; subst r'. left. rewrite Hc. left. rewrite He. f_equal. simpl. lia.
      * right. exists k, r'. repeat split; auto. rewrite He. f_equal. lia.
Qed.

Lemma parse_from_idx_ge f i : Forall (fun e => i <= idx e) (parse_from i f).
Proof.
  apply Forall_forall. intros e H. apply parse_from_spec in H. destruct H as [k [r [_ [_ E]]]].
  subst e. simpl. lia.
Qed.

Lemma parse_from_sorted f : forall i, StronglySorted Z.lt (map idx (parse_from i f)).
Proof.
  induction f as [|r f IH]; intro i; simpl; [constructor|].
  destruct (complete r); simpl; [|apply IH].
  constructor; [apply IH|].
  pose proof (parse_from_idx_ge f (i + 1)) as H. rewrite Forall_map.
  eapply Forall_impl; [|exact H]. intros a Ha. simpl in Ha. lia.
Qed.

Lemma parse_from_ids_unique f i : NoDup (map idx (parse_from i f)).
Proof. apply sorted_lt_nodup, parse_from_sorted. Qed.

Theorem fields i r :
  let e := to_ev i r in
  idx e = i /\ ts e = r_ts r /\ pid e = r_pid r /\ tid e = r_tid r /\ name e = r_name r /\
  (forall d, r_dur r = Some d -> dur e = d) /\ (forall c, r_cat r = Some c -> cat e = c) /\
  stream e = match r_stream r with Some s => s | None => -1 end /\
  corr e = match r_corr r with Some c => c | None => -1 end.
Proof.
  simpl. repeat split.
  - intros d H. rewrite H. reflexivity.
  - intros c H. rewrite H. reflexivity.
Qed.

Definition primary (e : ev) := (idx e, ts e, dur e, pid e, tid e, stream e, corr e, name e, cat e).

(* link and add_iter write index_correlation and iteration only: a column that ignores both reads the same before and after *)
Lemma parse_rank_map {B} (g : ev -> B) f :
  (forall e v, g (set_icorr e v) = g e) -> (forall e v, g (set_iter e v) = g e) ->
  map g (parse_rank f) = map g (parse_file f).
Proof.
  intros Hlink Hiter. unfold parse_rank, add_iter, link. rewrite !map_map. apply map_ext. intro e.
  rewrite Hiter. apply Hlink.
Qed.

(* the one constant is the library's minimum over all time stamps (0 when there is no row at all) *)
Lemma global_min_minZ ranks : global_min ranks = minZ 0 (all_ts ranks).
Proof. unfold global_min. destruct (all_ts ranks); reflexivity. Qed.

Lemma global_min_le ranks l e : In l ranks -> In e l -> global_min ranks <= ts e.
Proof. intros Hl He. rewrite global_min_minZ. apply minZ_le, in_map, in_concat. exists l. tauto. Qed.

Lemma global_min_attained ranks :
  List.concat ranks <> [] -> exists l e, In l ranks /\ In e l /\ ts e = global_min ranks.
Proof.
  intro Hne. rewrite global_min_minZ. assert (Hin : In (minZ 0 (all_ts ranks)) (all_ts ranks)).
  { apply minZ_in. unfold all_ts. destruct (List.concat ranks); [congruence | discriminate]. }
  apply in_map_iff in Hin. destruct Hin as [e [He Hin]]. apply in_concat in Hin. destruct Hin as [l [Hl Hel]]. exists l, e. auto.
Qed.

Lemma shift_primary c e :
  idx (shift c e) = idx e /\ dur (shift c e) = dur e /\ pid (shift c e) = pid e /\ tid (shift c e) = tid e /\
  stream (shift c e) = stream e /\ corr (shift c e) = corr e /\ icorr (shift c e) = icorr e /\
  iter (shift c e) = iter e /\ name (shift c e) = name e /\ cat (shift c e) = cat e.
Proof. repeat split. Qed.

(* rank j of a full load is file j parsed, shifted by the one constant, trimmed; beyond the last file both sides are empty *)
Lemma load_nth incl files j :
  nth j (load incl files) [] =
  trim incl (map (shift (global_min (map parse_rank files))) (parse_rank (nth j files []))).
Proof.
  unfold load, align. set (c := global_min _).
  rewrite <- (map_nth parse_rank), <- (map_nth (map (shift c))), <- (map_nth (trim incl)).
  reflexivity.
Qed.

Open Scope Q_scope.

Theorem round_inward (t e : Q) :
  t <= inject_Z (round_ts t) /\ inject_Z (round_end e) <= e.
Proof. split; [apply Qle_ceiling | apply Qfloor_le]. Qed.

(* the double addition (+) is monotone: the end pandas computes for a contained event is contained *)
Section FloatAdd.
  Variable fadd : Q -> Q -> Q.
  Hypothesis fadd_mono : forall a b a' b', a <= a' -> b <= b' -> fadd a b <= fadd a' b'.

  Theorem round_end_monotone tA dA tB dB :
    tB <= tA -> dB <= dA -> (round_end (fadd tB dB) <= round_end (fadd tA dA))%Z.
  Proof. intros. apply Qfloor_resp_le. apply fadd_mono; assumption. Qed.
End FloatAdd.
