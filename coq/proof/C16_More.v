(* C16: which instances are considered and what a pattern is made of (definitions), and what the model's own equality test,
   de-duplication and sort are instances of *)
From HTA.lib Require Import ListExtra Base.
From HTA.model Require Import C03_Model C13_Model C16_Model.
Open Scope list_scope.
Open Scope Z_scope.

Lemma list_eqb_eq a : forall b, list_eqb a b = true <-> a = b.
Proof.
  induction a as [|x a IH]; intros [|y b]; simpl; split; intro H; try reflexivity; try discriminate.
  - apply andb_prop in H. destruct H as [H1 H2]. apply String.eqb_eq in H1. apply IH in H2. subst. reflexivity.
  - inversion H; subst. rewrite String.eqb_refl. apply IH. reflexivity.
Qed.

Lemma dedup_p_ok : is_dedup list_eqb dedup_p.
Proof. split; reflexivity. Qed.

Lemma dedup_p_In l x : In x (dedup_p l) <-> In x l.
Proof. exact (dedup_In list_eqb_eq dedup_p_ok l x). Qed.

Lemma dedup_p_NoDup l : NoDup (dedup_p l).
Proof. exact (dedup_NoDup list_eqb_eq dedup_p_ok l). Qed.

Lemma insert_k_ok : is_insert (fun x y => ts x <? ts y) insert_k.
Proof. split; reflexivity. Qed.

(* the parts of C16_Model.instances under names of their own; instances_chosen puts them together again *)
Definition cands (l : list ev) (op : string) : list ev := filter (fun e => contains op (name e)) l.
Definition depth16 (l : list ev) (e : ev) : Z :=
  match lookupZ (idx e) (parent_map l) with Some _ => depth_of (S (List.length l)) (parent_map l) (idx e) | None => -1 end.
Definition nk16 (l : list ev) (e : ev) : Z :=
  match lookupZ (idx e) (parent_map l) with
  | Some _ => fst (fst (fst (kinfo_of (S (List.length l)) l (map fst (dev_edges l)) (parent_map l) (2 * maxZ 0 (map ts l)) (idx e))))
  | None => 0 end.
Definition ks16 (l : list ev) (e : ev) : Z :=
  match lookupZ (idx e) (parent_map l) with
  | Some _ => snd (fst (fst (kinfo_of (S (List.length l)) l (map fst (dev_edges l)) (parent_map l) (2 * maxZ 0 (map ts l)) (idx e))))
  | None => 0 end.
Definition kernels_under (l : list ev) (r : ev) : list ev :=
  flat_map (ev_of l) (desc_dev (S (List.length l)) (map fst (dev_edges l)) (parent_map l) (idx r)).
Definition inst_of (l : list ev) (r : ev) : inst :=
  mkInst (name r :: map name (sort_k (kernels_under l r))) (if nk16 l r <=? 0 then 0 else ks16 l r) (dur r).

(* the instances: those chosen among the candidates, the first of which fixes the default of the minimum *)
Definition chosen (l : list ev) (minlen : Z) (c0 : ev) (cand : list ev) : list inst :=
  map (inst_of l)
      (filter (fun e => (depth16 l e =? minZ (depth16 l c0) (map (depth16 l) cand)) && (minlen <=? nk16 l e)) cand).

Lemma instances_chosen l op minlen :
  instances l op minlen = match cands l op with [] => [] | c0 :: _ => chosen l minlen c0 (cands l op) end.
Proof. reflexivity. Qed.
