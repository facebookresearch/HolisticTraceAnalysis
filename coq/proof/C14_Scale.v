(* C14: resolution independence of the queue-length series (same rows, same counts, times multiplied by k).  The bandwidth series
   is NOT homogeneous in time: the implementation gives a zero-length copy a floor of one microsecond, an absolute constant
   (model: dur1); the harness applies that floor at the case's own scale. *)
From HTA.lib Require Import ListExtra Base.
From HTA.model Require Import C14_Model.
From HTA.proof Require Import Scale C14_Proofs.
Open Scope Z_scope.

Definition sq (k : Z) (q : qrow) : qrow := mkQ (k * q_ts q) (q_delta q) (q_id q) (q_stream q) (q_pid q) (q_tid q).

Lemma dev_rows_scale k l : dev_rows (scale_evs k l) = scale_evs k (dev_rows l).
Proof. apply filter_map_comm. reflexivity. Qed.

Lemma launches_scale k l : launches (scale_evs k l) = scale_evs k (launches l).
Proof. apply filter_map_comm. reflexivity. Qed.

Lemma launch_rows_scale k l : launch_rows (scale_evs k l) = map (sq k) (launch_rows l).
Proof.
  unfold launch_rows. rewrite launches_scale, dev_rows_scale. unfold scale_evs. rewrite flat_map_map, map_flat_map.
  apply flat_map_ext. intro r. rewrite filter_map_swap, !map_map. reflexivity.
Qed.

Lemma kernel_rows_scale k l : kernel_rows (scale_evs k l) = map (sq k) (kernel_rows l).
Proof.
  unfold kernel_rows. rewrite launches_scale, dev_rows_scale. unfold scale_evs. rewrite filter_map_swap, !map_map. reflexivity.
Qed.

Lemma q_lt_scale k x y : 0 < k -> q_lt (sq k x) (sq k y) = q_lt x y.
Proof. intro Hk. unfold q_lt. cbn [sq q_ts q_delta]. rewrite ltb_scale, eqb_scale by exact Hk. reflexivity. Qed.

Lemma sort_q_scale k l : 0 < k -> sort_q (map (sq k) l) = map (sq k) (sort_q l).
Proof. intro Hk. apply (isort_map insert_q_ok). intros x y. apply q_lt_scale, Hk. Qed.

Lemma cumsum_scale k acc l : cumsum acc (map (sq k) l) = map (fun p => (sq k (fst p), snd p)) (cumsum acc l).
Proof. revert acc. induction l as [|x r IH]; intro acc; cbn [map cumsum]; [reflexivity|]. rewrite IH. reflexivity. Qed.

Lemma stream_series_scale k l s : 0 < k ->
  stream_series (scale_evs k l) s = map (fun p => (sq k (fst p), snd p)) (stream_series l s).
Proof.
  intro Hk. unfold stream_series. rewrite launch_rows_scale, kernel_rows_scale, <- map_app.
  rewrite filter_map_swap, sort_q_scale by exact Hk. apply cumsum_scale.
Qed.

Lemma streams_of_scale k l : streams_of (scale_evs k l) = streams_of l.
Proof. unfold streams_of. rewrite launch_rows_scale, kernel_rows_scale, <- map_app, map_map. reflexivity. Qed.
