(* C20: what the writers leave of the source: the overlay (critical markers, then flow events numbered pair by pair), the rank
   update of the file's top-level keys, and the discovery of ranks from the files; the byte codecs are hypotheses. *)
From HTA.lib Require Import Base ListExtra.
From HTA.model Require Import C08_Model C20_Model.
Open Scope list_scope.
Open Scope Z_scope.

Lemma clear_mark crit i e : clear_crit (mark crit i e) = clear_crit e.
Proof. unfold mark. destruct (memZ i crit); reflexivity. Qed.

Lemma crit_mark crit i e : w_crit (mark crit i e) = memZ i crit || w_crit e.
Proof. unfold mark. destruct (memZ i crit); reflexivity. Qed.

Lemma mark_all_length crit : forall l i, List.length (mark_all crit i l) = List.length l.
Proof. induction l as [|e r IH]; intro i; simpl; [reflexivity | rewrite IH; reflexivity]. Qed.

Lemma mark_all_clear crit : forall l i, map clear_crit (mark_all crit i l) = map clear_crit l.
Proof. induction l as [|e r IH]; intro i; simpl; [reflexivity | rewrite clear_mark, IH; reflexivity]. Qed.

Lemma mark_all_nth crit : forall l i k,
  nth_error (mark_all crit i l) k = option_map (mark crit (i + Z.of_nat k)) (nth_error l k).
Proof.
  induction l as [|x r IH]; intros i [|k]; cbn [mark_all nth_error option_map]; try reflexivity.
  - rewrite Z.add_0_r. reflexivity.
  - rewrite IH. replace (i + 1 + Z.of_nat k) with (i + Z.of_nat (S k)) by lia. reflexivity.
Qed.

Lemma mark_all_nth_none crit : forall l i k, nth_error l k = None -> nth_error (mark_all crit i l) k = None.
Proof. intros l i k H. rewrite mark_all_nth, H. reflexivity. Qed.

Lemma overlay_keep_all sa zw src crit N cp all :
  overlay false sa zw src crit N cp all =
  map ISrc (mark_all crit 0 src) ++ map IFlow (flows_from src N cp 0 (drawn_edges false sa zw cp all)).
Proof. reflexivity. Qed.

Lemma overlay_nth_src sa zw src crit N cp all k e : nth_error src k = Some e ->
  nth_error (overlay false sa zw src crit N cp all) k = Some (ISrc (mark crit (Z.of_nat k) e)).
Proof.
  intro H. rewrite overlay_keep_all, nth_error_app1.
  - rewrite nth_error_map, mark_all_nth, H. reflexivity.
  - rewrite map_length, mark_all_length. apply nth_error_Some. congruence.
Qed.

Lemma flow_pair_wf src N cp id e : edge_wf src N e = true ->
  exists nu eu nv ev_, edge_events src N e = Some (nu, eu, nv, ev_) /\
    flow_pair src N cp id e =
      [ mkF true id (w_pid eu) (w_tid eu) (flow_ts nu eu) (g_ty e) (g_w e) (on_cp cp e);
        mkF false id (w_pid ev_) (w_tid ev_) (flow_ts nv ev_) (g_ty e) (g_w e) (on_cp cp e) ].
Proof.
  unfold edge_wf, flow_pair. destruct (edge_events src N e) as [[[[nu eu] nv] ev_]|]; [|discriminate].
  intros _. exists nu, eu, nv, ev_. split; reflexivity.
Qed.

(* numbering from any id: two flow events per drawn edge, the pair of the k-th edge at 2k and 2k+1 with id + k, and
   every flow event belongs to exactly one pair *)
Theorem flows_spec src N cp : forall drawn id, forallb (edge_wf src N) drawn = true ->
  List.length (flows_from src N cp id drawn) = (2 * List.length drawn)%nat /\
  (forall k e, nth_error drawn k = Some e ->
     exists nu eu nv ev_, edge_events src N e = Some (nu, eu, nv, ev_) /\
       nth_error (flows_from src N cp id drawn) (2 * k) =
         Some (mkF true (id + Z.of_nat k) (w_pid eu) (w_tid eu) (flow_ts nu eu) (g_ty e) (g_w e) (on_cp cp e)) /\
       nth_error (flows_from src N cp id drawn) (2 * k + 1) =
         Some (mkF false (id + Z.of_nat k) (w_pid ev_) (w_tid ev_) (flow_ts nv ev_) (g_ty e) (g_w e) (on_cp cp e))) /\
  (forall j f, nth_error (flows_from src N cp id drawn) j = Some f -> f_id f = id + Z.of_nat (j / 2) /\ f_start f = Nat.even j).
Proof.
  induction drawn as [|x r IH]; intros id H.
  - split; [reflexivity|]. split; [intros [|k] e Hk | intros [|j] f Hj]; discriminate.
  - cbn [forallb] in H. apply andb_prop in H. destruct H as [Hx Hr].
    destruct (flow_pair_wf src N cp id x Hx) as (nu & eu & nv & ev_ & Hev & Hp).
    destruct (IH (id + 1) Hr) as (IHlen & IHnth & IHid).
    cbn [flows_from]. rewrite Hp. cbn [app]. split; [|split].
    + cbn [List.length]. rewrite IHlen. lia.
    + intros [|k] e Hk; cbn [nth_error] in Hk.
      * injection Hk as <-. exists nu, eu, nv, ev_. rewrite Z.add_0_r. auto.
      * destruct (IHnth k e Hk) as (nu' & eu' & nv' & ev' & Hev' & H1 & H2). exists nu', eu', nv', ev'.
        replace (2 * S k)%nat with (S (S (2 * k))) by lia. replace (id + Z.of_nat (S k)) with (id + 1 + Z.of_nat k) by lia.
        auto.
    + intros [|[|j]] f Hj; cbn [nth_error] in Hj.
      * injection Hj as <-. split; [cbn; lia | reflexivity].
      * injection Hj as <-. split; [cbn; lia | reflexivity].
      * destruct (IHid j f Hj) as [H1 H2]. split; [|exact H2].
        rewrite H1. replace (S (S j)) with (j + 1 * 2)%nat by lia. rewrite Nat.div_add by lia. lia.
Qed.

Lemma get_set_field k v k' : forall l, get_field k' (set_field k v l) = if String.eqb k k' then Some v else get_field k' l.
Proof.
  induction l as [|[a b] l IH]; cbn [set_field get_field]; [reflexivity|].
  destruct (String.eqb_spec a k) as [->|Ha]; cbn [get_field].
  - destruct (String.eqb k k'); reflexivity.
  - rewrite IH. destruct (String.eqb_spec a k') as [->|]; [|reflexivity].
    destruct (String.eqb_spec k k'); [congruence | reflexivity].
Qed.

Lemma set_field_keys k v : forall l, map fst (set_field k v l) = map fst l ++ (if existsb (fun kv => String.eqb (fst kv) k) l then [] else [k]).
Proof.
  induction l as [|[a b] l IH]; simpl; [reflexivity|]. destruct (String.eqb a k) eqn:E; simpl.
  - rewrite app_nil_r. reflexivity.
  - rewrite IH. reflexivity.
Qed.

Lemma set_field_twice k v v' : forall l, set_field k v' (set_field k v l) = set_field k v' l.
Proof.
  induction l as [|[a b] l IH]; simpl; [rewrite String.eqb_refl; reflexivity|].
  destruct (String.eqb a k) eqn:E; simpl; rewrite E; [reflexivity | rewrite IH; reflexivity].
Qed.

Fixpoint lookup_key (k : string) (l : list (string * jval)) : option jval :=
  match l with [] => None | (a, v) :: r => if String.eqb a k then Some v else lookup_key k r end.

(* a distributedInfo key, if there is one, holds an object (JInfo), not a bare token *)
Definition info_wf (d : doc) : Prop := has_key "distributedInfo" (d_keys d) = true -> exists f, get_info (d_keys d) = Some f.

(* top-level keys: has_key and get_info are lookup_key followed by a test *)
Lemma has_key_lookup k l : has_key k l = match lookup_key k l with Some _ => true | None => false end.
Proof.
  induction l as [|[a v] l IH]; cbn [has_key lookup_key]; [reflexivity|]. destruct (String.eqb a k); [reflexivity | exact IH].
Qed.

Lemma get_info_lookup l :
  get_info l = match lookup_key "distributedInfo" l with Some (JInfo f) => Some f | _ => None end.
Proof.
  induction l as [|[a v] l IH]; cbn [get_info lookup_key]; [reflexivity|].
  destruct (String.eqb a "distributedInfo"); [destruct v; reflexivity | exact IH].
Qed.

Lemma get_info_has_key l f : get_info l = Some f -> has_key "distributedInfo" l = true.
Proof. rewrite get_info_lookup, has_key_lookup. destruct (lookup_key _ l); [reflexivity | discriminate]. Qed.

Lemma lookup_key_app k l l' :
  lookup_key k (l ++ l') = match lookup_key k l with Some v => Some v | None => lookup_key k l' end.
Proof.
  induction l as [|[a v] l IH]; cbn [app lookup_key]; [reflexivity|]. destruct (String.eqb a k); [reflexivity | exact IH].
Qed.

(* what upd_info does to the value it finds *)
Definition upd_val (r : Z) (v : jval) : jval := match v with JInfo f => JInfo (set_field "rank" r f) | JTok _ => v end.

Lemma lookup_upd_info r k l :
  lookup_key k (upd_info r l) =
  if String.eqb "distributedInfo" k then option_map (upd_val r) (lookup_key k l) else lookup_key k l.
Proof.
  induction l as [|[a v] l IH]; cbn [upd_info lookup_key]; [destruct (String.eqb _ k); reflexivity|].
  destruct (String.eqb_spec a "distributedInfo") as [->|Ha]; cbn [lookup_key].
  - destruct (String.eqb "distributedInfo" k); reflexivity.
  - rewrite IH. destruct (String.eqb_spec a k) as [->|]; [|reflexivity].
    destruct (String.eqb_spec "distributedInfo" k); [congruence | reflexivity].
Qed.

Lemma has_key_upd r k l : has_key k (upd_info r l) = has_key k l.
Proof. rewrite !has_key_lookup, lookup_upd_info. destruct (String.eqb _ k), (lookup_key k l); reflexivity. Qed.

Lemma get_info_upd r l : get_info (upd_info r l) = option_map (set_field "rank" r) (get_info l).
Proof. rewrite !get_info_lookup, lookup_upd_info, String.eqb_refl. destruct (lookup_key _ l) as [[t|f]|]; reflexivity. Qed.

Lemma upd_info_keys r : forall l, map fst (upd_info r l) = map fst l.
Proof.
  induction l as [|[a v] l IH]; simpl; [reflexivity|]. destruct (String.eqb a "distributedInfo"); simpl; [reflexivity | rewrite IH; reflexivity].
Qed.

Lemma upd_info_twice r r' : forall l, upd_info r' (upd_info r l) = upd_info r' l.
Proof.
  induction l as [|[a v] l IH]; simpl; [reflexivity|]. destruct (String.eqb a "distributedInfo") eqn:E; simpl; rewrite E.
  - destruct v; [reflexivity | rewrite set_field_twice; reflexivity].
  - rewrite IH. reflexivity.
Qed.

(* only the first distributedInfo entry is touched *)
Lemma upd_info_app r l l' :
  upd_info r (l ++ l') = if has_key "distributedInfo" l then upd_info r l ++ l' else l ++ upd_info r l'.
Proof.
  induction l as [|[a v] l IH]; cbn [app upd_info has_key]; [reflexivity|].
  destruct (String.eqb a "distributedInfo"); cbn [orb app]; [reflexivity|]. rewrite IH. destruct (has_key _ l); reflexivity.
Qed.

(* the byte-level codecs (json + gzip) are runtime behaviour: hypotheses here, exercised by the correspondence run *)
Section Codec.
  Variable bytes : Type.
  Variable enc : bool -> doc -> bytes.            (* true: .gz *)
  Variable dec : bool -> bytes -> option doc.
  Hypothesis codec_rt : forall gz d, dec gz (enc gz d) = Some d.

  Definition write_file (gz : bool) (d : doc) : bytes := enc gz d.
  Definition read_file (gz : bool) (b : bytes) : option doc := dec gz b.
  Definition update_file (gz : bool) (b : bytes) (r : Z) : option bytes :=
    match read_file gz b with Some d => Some (write_file gz (update_rank d r)) | None => None end.

  Lemma read_write gz d : read_file gz (write_file gz d) = Some d.
  Proof. apply codec_rt. Qed.

  Lemma update_file_spec gz d r : exists b, update_file gz (write_file gz d) r = Some b /\ read_file gz b = Some (update_rank d r).
  Proof. unfold update_file. rewrite read_write. eexists. split; [reflexivity | apply read_write]. Qed.
End Codec.

Fixpoint getm (m : list (Z * Z)) (k : Z) : option Z :=
  match m with [] => None | (a, b) :: r => if a =? k then Some b else getm r k end.

Lemma getm_put k v : forall m r, getm (put k v m) r = if k =? r then Some v else getm m r.
Proof.
  induction m as [|[a b] m IH]; intro r; simpl; [reflexivity|].
  destruct (a =? k) eqn:E; simpl.
  - assert (a = k) by lia. subst a. destruct (k =? r); reflexivity.
  - rewrite IH. destruct (a =? r) eqn:E2; [|reflexivity]. destruct (k =? r) eqn:E3; [lia | reflexivity].
Qed.

Lemma file_rank_hd l r : hd_error l = Some r -> file_rank l = r.
Proof. destruct l; [discriminate|]. intro H. injection H as ->. reflexivity. Qed.

(* the path of the last file that shows rank r, or acc if none does *)
Definition last_with (r : Z) (files : list (Z * list Z)) (acc : option Z) : option Z :=
  fold_left (fun a f => if file_rank (snd f) =? r then Some (fst f) else a) files acc.

Lemma discover_acc r : forall files m,
  getm (fold_left (fun m f => put (file_rank (snd f)) (fst f) m) files m) r = last_with r files (getm m r).
Proof.
  induction files as [|f files IH]; intro m; [reflexivity|]. unfold last_with in *. cbn [fold_left]. rewrite IH, getm_put. reflexivity.
Qed.

Lemma discover_last files r : getm (discover files) r = last_with r files None.
Proof. apply (discover_acc r files []). Qed.

(* the fold is a search from the end *)
Lemma last_with_find r files acc :
  last_with r files acc =
  match find (fun f => file_rank (snd f) =? r) (rev files) with Some f => Some (fst f) | None => acc end.
Proof. apply (fold_left_last (fun f => file_rank (snd f) =? r) (fun f => Some (fst f))). Qed.

Lemma discover_unique files : NoDup (map (fun f => file_rank (snd f)) files) ->
  forall f, In f files -> getm (discover files) (file_rank (snd f)) = Some (fst f).
Proof.
  intros Hnd f Hin. rewrite discover_last, last_with_find, (find_by_key (fun f => file_rank (snd f))); [reflexivity | |].
  - rewrite map_rev. apply NoDup_rev, Hnd.
  - apply in_rev in Hin. exact Hin.
Qed.

Lemma discover_only_files files r p : getm (discover files) r = Some p -> exists f, In f files /\ fst f = p /\ file_rank (snd f) = r.
Proof.
  rewrite discover_last, last_with_find. destruct (find _ (rev files)) as [f|] eqn:F; [|discriminate].
  intros [= <-]. apply find_some in F. destruct F as [Hin E]. apply in_rev in Hin. apply Z.eqb_eq in E. exists f. auto.
Qed.
