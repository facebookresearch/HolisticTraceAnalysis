From HTA.lib Require Import Base ListExtra.
From HTA.model Require Import C15_Model.

Lemma in_launch_corrs mem l c :
  In c (launch_corrs mem l) <-> exists r', In r' l /\ is_launch_name mem (name r') = true /\ corr r' = c.
Proof.
  unfold launch_corrs. rewrite in_map_iff. setoid_rewrite filter_In.
  split; intros [r' H]; exists r'; tauto.
Qed.

Lemma in_cpu_sel mem l r : In r (cpu_sel mem l) <-> In r l /\ stream r = -1 /\ In (corr r) (launch_corrs mem l).
Proof. unfold cpu_sel, memZ. rewrite filter_In, andb_true_iff, Z.eqb_eq, memZ_In. reflexivity. Qed.

Lemma in_gpu_sel mem l k : In k (gpu_sel mem l) <-> In k l /\ stream k <> -1 /\ In (corr k) (launch_corrs mem l).
Proof. unfold gpu_sel, memZ. rewrite filter_In, andb_true_iff, negb_true_iff, Z.eqb_neq, memZ_In. reflexivity. Qed.

(* the pairs exactly as the code selects them: the launch call of the pair's correlation may be another row *)
Lemma in_pairs mem l r k : In (r, k) (pairs mem l) <->
  In r l /\ In k l /\ stream r = -1 /\ stream k <> -1 /\ corr k = corr r /\ In (corr r) (launch_corrs mem l).
Proof.
  unfold pairs. rewrite in_flat_map_pairs, filter_In, in_cpu_sel, in_gpu_sel, Z.eqb_eq. split.
  - tauto.
  - intros (Hr & Hk & Hs & Hks & Hc & Hl). rewrite Hc. tauto.
Qed.

Lemma NoDup_pairs mem l : NoDup l -> NoDup (pairs mem l).
Proof.
  intro Hnd. unfold pairs.
  apply (NoDup_flat_map_pairs (fun r => filter (fun k => corr k =? corr r) (gpu_sel mem l))).
  - unfold cpu_sel. apply NoDup_filter. exact Hnd.
  - intros a _. apply NoDup_filter. unfold gpu_sel. apply NoDup_filter. exact Hnd.
Qed.

(* Well-formedness used by the property: the correlation id of a launch call is carried by no other row on stream -1
   (a correlation id pairs at most one host call with one device activity).  Stated for the launch names of the flag ON:
   the flag off only takes names away (launch_name_flag), so one hypothesis serves both flag values. *)
Definition wf_launch (l : list ev) : Prop :=
  forall r r', In r l -> In r' l -> is_launch_name true (name r') = true ->
    stream r = -1 -> corr r' = corr r -> r' = r.

Definition linked_pair (mem : bool) (l : list ev) (r k : ev) : Prop :=
  In r l /\ In k l /\ is_launch_name mem (name r) = true /\ stream r = -1 /\
  stream k <> -1 /\ corr k = corr r.

Definition is_mem_launch (n : string) : bool :=
  str_in n memory_launch_names && negb (str_in n kernel_launch_names).

(* flag off = flag on minus the memory launches *)
Lemma launch_name_flag n : is_launch_name false n = is_launch_name true n && negb (is_mem_launch n).
Proof.
  unfold is_launch_name, is_mem_launch.
  destruct (str_in n kernel_launch_names), (str_in n memory_launch_names); reflexivity.
Qed.

Lemma launch_name_mono mem n : is_launch_name mem n = true -> is_launch_name true n = true.
Proof. destruct mem; [auto|]. rewrite launch_name_flag, andb_true_iff. tauto. Qed.

(* on a well-formed frame the launch call of the pair's correlation is the pair's host row *)
Theorem in_pairs_wf mem l r k : wf_launch l -> (In (r, k) (pairs mem l) <-> linked_pair mem l r k).
Proof.
  intro Hwf. rewrite in_pairs, in_launch_corrs. unfold linked_pair. split.
  - intros (Hr & Hk & Hs & Hks & Hc & r' & Hr' & Hl & Hc').
    assert (r' = r) by (apply Hwf; auto; eapply launch_name_mono; exact Hl). subst r'. tauto.
  - intros (Hr & Hk & Hl & Hs & Hks & Hc). repeat split; auto. exists r. auto.
Qed.

Theorem delay_floor r k :
  0 <= nth 3 (row (r, k)) 0 /\
  (ts r + dur r <= ts k -> nth 3 (row (r, k)) 0 = ts k - (ts r + dur r)) /\
  (ts k <= ts r + dur r -> nth 3 (row (r, k)) 0 = 0).
Proof. unfold row; simpl. lia. Qed.
