From Coq Require Import Permutation.
From HTA.lib Require Import Base ListExtra Sweep.
From HTA.model Require Import C14_Model.
Open Scope list_scope.
Open Scope Z_scope.

Fixpoint psums (acc : Z) (rows : list row) : list Z :=
  match rows with [] => [] | x :: r => (acc + snd x) :: psums (acc + snd x) r end.

Lemma psums_split acc pre x post :
  psums acc (pre ++ x :: post) =
  psums acc pre ++ (acc + sumZ (map snd pre) + snd x) :: psums (acc + sumZ (map snd pre) + snd x) post.
Proof.
  revert acc. induction pre as [|y pre IH]; intro acc; cbn [app map psums].
  - change (sumZ []) with 0. rewrite Z.add_0_r. reflexivity.
  - rewrite IH, sumZ_cons, !Z.add_assoc. reflexivity.
Qed.

Lemma psums_In acc l v : In v (psums acc l) ->
  exists pre x post, l = pre ++ x :: post /\ v = acc + sumZ (map snd (pre ++ [x])).
Proof.
  revert acc. induction l as [|y l IH]; intros acc H; cbn [psums] in H; [destruct H|].
  destruct H as [H|H].
  - exists [], y, l. split; [reflexivity|]. cbn. lia.
  - apply IH in H. destruct H as [pre [x [post [E Hv]]]]. exists (y :: pre), x, post.
    split; [rewrite E; reflexivity|]. rewrite Hv. cbn [app map]. rewrite sumZ_cons. lia.
Qed.

Lemma psums_length acc l : List.length (psums acc l) = List.length l.
Proof. revert acc. induction l as [|x l IH]; intro acc; simpl; [reflexivity | rewrite IH; reflexivity]. Qed.

Lemma psums_last acc l : l <> [] -> last (psums acc l) 0 = acc + sumZ (map snd l).
Proof.
  intro Hne. destruct (exists_last Hne) as [pre [x E]]. subst l.
  rewrite psums_split, last_last, map_app, sumZ_app. cbn. lia.
Qed.

(* the value after the last row of an instant: all earlier rows have time <= u, all later rows time > u *)
Theorem value_at_instant rows rows' pre x post :
  Permutation rows rows' -> rows' = pre ++ x :: post -> sorted_time rows' ->
  (forall y, In y post -> fst x < fst y) ->
  sumZ (map snd (pre ++ [x])) = level rows (fst x).
Proof.
  intros Hp E Hs Hpost. rewrite (level_perm _ _ (fst x) Hp). subst rows'.
  apply StronglySorted_split in Hs. destruct Hs as [Hpre _].
  change (pre ++ x :: post) with (pre ++ [x] ++ post). rewrite app_assoc, level_app.
  rewrite (level_before post _ Hpost), level_after; [lia|].
  intros r Hr. apply in_app_or in Hr. destruct Hr as [Hr|[Hr|[]]]; [apply Hpre, Hr | subst; lia].
Qed.

(* the level at w is at most a prefix sum, if the rows of the prefix later than w only add and the other rows up to w
   only subtract *)
Lemma level_le_prefix (L post : list row) w :
  (forall y, In y L -> w < fst y -> 0 <= snd y) -> (forall y, In y post -> fst y <= w -> snd y <= 0) ->
  level (L ++ post) w <= sumZ (map snd L).
Proof.
  intros HL Hpost. rewrite level_app.
  assert (H1 : level L w <= sumZ (map snd L)).
  { apply sumZ_le. intros y Hy. specialize (HL y Hy). destruct (fst y <=? w) eqn:E; lia. }
  assert (H2 : level post w <= sumZ (map (fun _ => 0) post)).
  { apply sumZ_le. intros y Hy. specialize (Hpost y Hy). destruct (fst y <=? w) eqn:E; lia. }
  rewrite sumZ_zero in H2 by reflexivity. lia.
Qed.

Definition pair := (Z * Z)%type.     (* (launch time, start time) *)
Definition from_pairs (P : list pair) : list row :=
  map (fun p => (fst p, 1)) P ++ map (fun p => (snd p, -1)) P.

Lemma from_pairs_paired P : from_pairs P = paired_rows fst snd (fun _ => 1) P.
Proof. reflexivity. Qed.

Lemma level_from_pairs P u :
  level (from_pairs P) u = count (fun p => fst p <=? u) P - count (fun p => snd p <=? u) P.
Proof.
  rewrite from_pairs_paired, level_paired_rows.
  induction P as [|p P IH]; [reflexivity|]. cbn [map]. rewrite sumZ_cons, !count_cons, IH. lia.
Qed.

Lemma level_from_pairs_nonneg P u : (forall p, In p P -> fst p <= snd p) -> 0 <= level (from_pairs P) u.
Proof.
  intro H. rewrite from_pairs_paired, level_paired_rows. apply sumZ_nonneg. intros p Hp. specialize (H p Hp).
  destruct (fst p <=? u) eqn:E1, (snd p <=? u) eqn:E2; lia.
Qed.

Lemma from_pairs_pm1 P y : In y (from_pairs P) -> snd y = 1 \/ snd y = -1.
Proof.
  intro Hy. apply in_app_or in Hy.
  destruct Hy as [Hy|Hy]; apply in_map_iff in Hy; destruct Hy as [p [Hy _]]; subst y; auto.
Qed.

(* refined time: launches of instant t at 2t, starts of instant t at 2t+1 *)
Definition refine (x : row) : row := (2 * fst x + (if snd x =? 1 then 0 else 1), snd x).

(* the refined order is the order of time, and inside an instant nothing but launches precedes a launch *)
Lemma refine_le x y : fst (refine x) <= fst (refine y) -> fst x <= fst y /\ (fst x = fst y -> snd y = 1 -> snd x = 1).
Proof. unfold refine. cbn [fst snd]. destruct (snd x =? 1) eqn:Ex, (snd y =? 1) eqn:Ey; lia. Qed.

(* A step function that is never negative has no negative prefix sum, in whatever order the rows of one instant are
   summed, as long as its increments come first: the prefix sum up to an increment x is at least the level before the
   instant of x (what the instant has added so far are increments), the prefix sum up to another row is at least the
   level at its instant (what the instant still has to add are decrements). *)
Theorem prefix_sums_nonneg rows rows' :
  Permutation rows rows' -> (forall w, 0 <= level rows w) -> (forall y, In y rows -> snd y = 1 \/ snd y <= 0) ->
  sorted_time (map refine rows') ->
  forall v, In v (psums 0 rows') -> 0 <= v.
Proof.
  intros Hp Hlev Hsign Hs v Hv. apply psums_In in Hv. destruct Hv as [pre [x [post [E Hv]]]]. subst v rows'.
  apply StronglySorted_map, StronglySorted_split in Hs. destruct Hs as [Hpre Hpost].
  assert (Hlev' : forall w, 0 <= level ((pre ++ [x]) ++ post) w).
  { intro w. rewrite <- app_assoc. cbn [app]. rewrite <- (level_perm _ _ w Hp). apply Hlev. }
  assert (Hpre' : forall y, In y (pre ++ [x]) -> fst (refine y) <= fst (refine x)).
  { intros y Hy. apply in_app_or in Hy. destruct Hy as [Hy|[Hy|[]]]; [apply Hpre, Hy | subst; lia]. }
  rewrite Z.add_0_l. destruct (Z.eq_dec (snd x) 1) as [Ex|Ex].
  - apply (Z.le_trans _ _ _ (Hlev' (fst x - 1))), level_le_prefix.
    + intros y Hy Hlt. destruct (refine_le y x (Hpre' y Hy)) as [Hle Hsame]. rewrite Hsame; lia.
    + intros y Hy Hle. destruct (refine_le x y (Hpost y Hy)) as [Hge _]. lia.
  - apply (Z.le_trans _ _ _ (Hlev' (fst x))), level_le_prefix.
    + intros y Hy Hlt. destruct (refine_le y x (Hpre' y Hy)) as [Hle _]. lia.
    + intros y Hy Hle. destruct (refine_le x y (Hpost y Hy)) as [Hge Hsame].
      destruct (Hsign y) as [Ey|Ey]; [|exfalso; apply Ex, Hsame; lia | exact Ey].
      apply (Permutation_in _ (Permutation_sym Hp)), in_or_app. right. right. exact Hy.
Qed.

Definition rowz (x : qrow) : row := (q_ts x, q_delta x).

Lemma insert_q_ok : is_insert q_lt insert_q.
Proof. split; reflexivity. Qed.

Definition pm1 (l : list qrow) : Prop := forall x, In x l -> q_delta x = 1 \/ q_delta x = -1.

(* on +-1 rows the sort key decides the refined order *)
Lemma q_lt_refine x y : (q_delta x = 1 \/ q_delta x = -1) -> (q_delta y = 1 \/ q_delta y = -1) ->
  (if q_lt x y then fst (refine (rowz x)) <= fst (refine (rowz y)) else fst (refine (rowz y)) <= fst (refine (rowz x))).
Proof.
  intros Hx Hy. unfold q_lt, refine, rowz. cbn [fst snd].
  destruct (q_delta x =? 1) eqn:Ex, (q_delta y =? 1) eqn:Ey,
    ((q_ts x <? q_ts y) || (q_ts x =? q_ts y) && (q_delta y <? q_delta x)) eqn:E; lia.
Qed.

(* copies as (start, end, bw) with start < end (a zero-length copy counts as one time unit) *)
Definition copy := (Z * Z * Z)%type.
Definition copy_rows (C : list copy) : list row :=
  map (fun c => (fst (fst c), snd c)) C ++ map (fun c => (snd (fst c), - snd c)) C.
Definition active_bw (C : list copy) (t : Z) : Z :=
  sumZ (map (fun c => if (fst (fst c) <=? t) && (t <? snd (fst c)) then snd c else 0) C).

Lemma level_copy_rows C t : (forall c, In c C -> fst (fst c) < snd (fst c)) -> level (copy_rows C) t = active_bw C t.
Proof.
  intro H. change (copy_rows C) with (paired_rows (fun c : copy => fst (fst c)) (fun c => snd (fst c)) snd C).
  rewrite level_paired_rows. unfold active_bw. f_equal. apply map_ext_in. intros c Hc. specialize (H c Hc).
  destruct (fst (fst c) <=? t) eqn:E1, (snd (fst c) <=? t) eqn:E2, (t <? snd (fst c)) eqn:E3; cbn [andb]; lia.
Qed.
