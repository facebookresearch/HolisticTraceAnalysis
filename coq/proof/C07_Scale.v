(* C07: resolution independence of the overlap model (numerator and denominator scale alike) *)
From HTA.lib Require Import ListExtra Base.
From HTA.model Require Import C07_Model.
From HTA.proof Require Import Scale C07_Proofs.
Open Scope Z_scope.

Lemma sort_time_scale k l : 0 < k -> sort_time (map (srow k) l) = map (srow k) (sort_time l).
Proof. intro Hk. apply (isort_map insert_time_ok). intros x y. apply ltb_scale, Hk. Qed.

Lemma status_rows_scale k A B : status_rows (map (sitv k) A) (map (sitv k) B) = map (srow k) (status_rows A B).
Proof. unfold status_rows. rewrite !rows_of_scale, map_app. reflexivity. Qed.

Lemma overlap_scale k A R : 0 < k ->
  overlap (map (sitv k) A) (map (srow k) R) = (k * fst (overlap A R), k * snd (overlap A R)).
Proof. intro Hk. unfold overlap. rewrite merge_sorted_scale, sweep_scale, total_scale by exact Hk. reflexivity. Qed.
