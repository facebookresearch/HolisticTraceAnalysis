From Coq Require Import Permutation.
From HTA.lib Require Import Base ListExtra.
From HTA.gen Require Import Symtab_gen.
From HTA.model Require Import C11_Model.
Open Scope list_scope.
Open Scope Z_scope.

(* the two structures agree: sym_index[s] = i  <->  sym_table[i] = s; no symbol twice *)
Definition consistent (t : symtab) : Prop :=
  NoDup (sym_table t) /\
  forall s i, lookup s (sym_index t) = Some i <-> (0 <= i /\ nth_error (sym_table t) (Z.to_nat i) = Some s).

Lemma consistent_empty : consistent empty_symtab.
Proof.
  split; [constructor|]. intros s i. simpl. split; [discriminate|].
  intros [_ H]. destruct (Z.to_nat i); discriminate.
Qed.

Lemma consistent_In t s : consistent t -> In s (sym_table t) <-> exists i, lookup s (sym_index t) = Some i.
Proof.
  intros [_ Hc]. split.
  - intro Hin. apply In_nth_error in Hin. destruct Hin as [n Hn]. exists (Z.of_nat n).
    apply Hc. rewrite Nat2Z.id. split; [lia | exact Hn].
  - intros [i Hi]. apply Hc in Hi. eapply nth_error_In, Hi.
Qed.

Lemma add_one_table t s :
  sym_table (add_one t s) = sym_table t ++ match lookup s (sym_index t) with Some _ => [] | None => [s] end.
Proof. unfold add_one. destruct (lookup s (sym_index t)); [rewrite app_nil_r|]; reflexivity. Qed.

Lemma add_one_In t s x : consistent t -> In x (sym_table (add_one t s)) <-> In x (sym_table t) \/ s = x.
Proof.
  intro Hc. rewrite add_one_table, in_app_iff. destruct (lookup s (sym_index t)) as [i|] eqn:L; cbn [In]; [|tauto].
  assert (In s (sym_table t)) by (apply consistent_In; eauto).
  split; [tauto | intros [H'|<-]; auto].
Qed.

(* an id once assigned is never touched again (whether or not the table is consistent) *)
Lemma add_one_lookup t x s i : lookup s (sym_index t) = Some i -> lookup s (sym_index (add_one t x)) = Some i.
Proof.
  intro H. unfold add_one. destruct (lookup x (sym_index t)) eqn:L; [exact H|]. cbn [sym_index lookup].
  destruct (String.eqb_spec s x); [congruence | exact H].
Qed.

Lemma add_one_consistent t s : consistent t -> consistent (add_one t s).
Proof.
  intros Hc. unfold add_one. destruct (lookup s (sym_index t)) as [i|] eqn:L; [exact Hc|].
  assert (Hnotin : ~ In s (sym_table t)).
  { rewrite (consistent_In t s Hc). intros [i Hi]. congruence. }
  destruct Hc as [Hnd Hc]. split; cbn [sym_table sym_index].
  - apply (Permutation_NoDup (Permutation_cons_append _ _)). constructor; assumption.
  - intros s' i. cbn [lookup]. rewrite nth_error_snoc. destruct (String.eqb_spec s' s) as [->|Hne].
    + (* the new symbol sits at the old length and nowhere below *)
      split.
      * intro H. injection H as <-. split; [lia|]. right. rewrite Nat2Z.id. auto.
      * intros [Hi [H|[H _]]]; [elim Hnotin; eapply nth_error_In, H | f_equal; lia].
    + rewrite Hc. split; [intros [Hi H]; auto|].
      intros [Hi [H|[_ H]]]; [auto | congruence].
Qed.

Lemma add_symbols_consistent t syms : consistent t -> consistent (add_symbols t syms).
Proof. apply fold_left_inv. intros a s. apply add_one_consistent. Qed.

Lemma add_symbols_lookup t syms s i :
  lookup s (sym_index t) = Some i -> lookup s (sym_index (add_symbols t syms)) = Some i.
Proof. apply (fold_left_inv (fun a => lookup s (sym_index a) = Some i)). intros a x. apply add_one_lookup. Qed.

Lemma add_symbols_In syms : forall t x, consistent t ->
  In x (sym_table (add_symbols t syms)) <-> In x (sym_table t) \/ In x syms.
Proof.
  induction syms as [|s syms IH]; intros t x Hc; cbn [In]; [cbn; tauto|].
  change (add_symbols t (s :: syms)) with (add_symbols (add_one t s) syms).
  rewrite IH, add_one_In by auto using add_one_consistent. tauto.
Qed.

Lemma decode_spec t i s : decode t i = Some s <-> 0 <= i /\ nth_error (sym_table t) (Z.to_nat i) = Some s.
Proof. unfold decode. destruct (Z.ltb_spec i 0); split; [discriminate | lia | auto with zarith | tauto]. Qed.

Theorem lookup_decode t s i : consistent t -> lookup s (sym_index t) = Some i <-> decode t i = Some s.
Proof. intros [_ Hc]. rewrite decode_spec. apply Hc. Qed.

Lemma set_nth_Forall {A} (P : A -> Prop) n x l : Forall P l -> P x -> Forall P (set_nth n x l).
Proof.
  revert n. induction l as [|y l IH]; intros n Hl Hx; destruct n; simpl; try constructor; inversion Hl; subst; auto.
Qed.

(* gathering tables adds their symbols one after the other; combine is gather from the empty table *)
Lemma gather_add_symbols locals : forall g, gather g locals = add_symbols g (flat_map sym_table locals).
Proof.
  unfold gather, add_symbols. induction locals as [|t ts IH]; intro g; cbn [fold_left flat_map]; [reflexivity|].
  rewrite fold_left_app. apply IH.
Qed.

Lemma gather_consistent g locals : consistent g -> consistent (gather g locals).
Proof. rewrite gather_add_symbols. apply add_symbols_consistent. Qed.

Theorem step_consistent pool o : Forall consistent pool -> Forall consistent (step pool o).
Proof.
  intro Hp. assert (Hn : forall t, consistent (nth t pool empty_symtab)).
  { intro t. apply nth_Forall; [exact Hp | apply consistent_empty]. }
  destruct o as [t syms|t|ts]; cbn [step].
  - apply set_nth_Forall; [exact Hp|]. apply add_symbols_consistent, Hn.
  - apply Forall_app. split; [exact Hp|]. constructor; [|constructor].
    (* clone t is t with its record rebuilt: the projections agree by computation *)
    exact (Hn t).
  - apply Forall_app. split; [exact Hp|]. constructor; [|constructor].
    apply (gather_consistent empty_symtab), consistent_empty.
Qed.

(* multi-rank loading: re-encoding commutes with decoding for every consistent global table that holds the symbols of
   the local one, however either was filled *)
Theorem reencode_decodes g local x s :
  consistent g -> incl (sym_table local) (sym_table g) -> decode local x = Some s ->
  exists y, reencode g local x = Some y /\ decode g y = Some s.
Proof.
  intros Hc Hincl Hd. apply decode_spec in Hd. destruct Hd as [_ Hd].
  assert (Hin : In s (sym_table g)) by (eapply Hincl, nth_error_In, Hd).
  apply (consistent_In g s Hc) in Hin. destruct Hin as [y Hy]. exists y. split.
  - unfold reencode. rewrite Hd. exact Hy.
  - apply lookup_decode; assumption.
Qed.

Lemma gather_incl g locals local : consistent g -> In local locals -> incl (sym_table local) (sym_table (gather g locals)).
Proof.
  intros Hc Hl s Hs. rewrite gather_add_symbols. apply add_symbols_In; [exact Hc|].
  right. apply in_flat_map. exists local. auto.
Qed.
