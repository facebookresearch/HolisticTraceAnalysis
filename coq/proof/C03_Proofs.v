(* The stack machine over the key-sorted endpoints of a properly nested family of positive-duration events gives
   every event its innermost enclosing event as parent. *)
From Coq Require Import Permutation Sorted.
From HTA.lib Require Import Base ListExtra.
From HTA.gen Require Import Cmp_gen.
From HTA.model Require Import C03_Model.
From HTA.proof Require Import C03_Order.
Open Scope list_scope.
Open Scope Z_scope.

Definition kl (x y : ep) : Prop := key_lt x y = true.

(* two events of one thread: disjoint or touching, or one within the other *)
Definition nested (a b : ev) : Prop :=
  eend a <= ts b \/ eend b <= ts a \/ (ts a <= ts b /\ eend b <= eend a) \/ (ts b <= ts a /\ eend a <= eend b).

(* a encloses b, in key order: a opens before b and closes after it *)
Definition encl (a b : ev) : Prop := kl (open_new a) (open_new b) /\ kl (close_new b) (close_new a).

(* the key order between the ends of two events, as arithmetic on their spans *)
Lemma kl_open_open a b : kl (open_new a) (open_new b) <->
  ts a < ts b \/ (ts a = ts b /\ (dur b < dur a \/ (dur a = dur b /\ idx a < idx b))).
Proof. unfold kl. rewrite key_lt_iff. unfold before, tie, open_new, OPEN_END. cbn [e_idx e_dur e_kind e_time]. lia. Qed.

Lemma kl_close_close a b : kl (close_new a) (close_new b) <->
  eend a < eend b \/ (eend a = eend b /\ (dur a < dur b \/ (dur a = dur b /\ idx b < idx a))).
Proof. unfold kl. rewrite key_lt_iff. unfold before, tie, close_new, CLOSE_END, eend. cbn [e_idx e_dur e_kind e_time]. lia. Qed.

(* at one instant closing ends come first *)
Lemma kl_open_close a b : kl (open_new a) (close_new b) <-> ts a < eend b.
Proof. unfold kl. rewrite key_lt_iff. unfold before, tie, open_new, close_new, OPEN_END, CLOSE_END, eend. cbn [e_idx e_dur e_kind e_time]. lia. Qed.

Lemma open_lt_close e : 0 < dur e -> kl (open_new e) (close_new e).
Proof. rewrite kl_open_close. unfold eend. lia. Qed.

Theorem no_crossing e t : nested e t ->
  kl (open_new e) (open_new t) -> kl (open_new t) (close_new e) -> kl (close_new e) (close_new t) -> False.
Proof. unfold nested. rewrite kl_open_open, kl_open_close, kl_close_close. unfold eend. lia. Qed.

Lemma straddle_encl a b : nested a b ->
  kl (open_new a) (open_new b) -> kl (open_new b) (close_new a) -> encl a b.
Proof. unfold encl, nested. rewrite kl_open_open, kl_open_close, kl_close_close. unfold eend. lia. Qed.

Lemma encl_straddle a b : 0 < dur a -> 0 < dur b -> encl a b -> kl (open_new b) (close_new a).
Proof. unfold encl. rewrite kl_open_open, kl_open_close, kl_close_close. unfold eend. lia. Qed.

Lemma encl_span a b : encl a b -> ts a <= ts b /\ eend b <= eend a.
Proof. unfold encl. rewrite kl_open_open, kl_close_close. unfold eend. lia. Qed.

(* two enclosers of one event are themselves nested: the one that opens first encloses the other *)
Lemma enclosers_chain a p b : 0 < dur b -> nested a p ->
  encl a b -> encl p b -> kl (open_new a) (open_new p) -> encl a p.
Proof.
  (* of the two enclosures only the spans matter: b, of positive length, lies within both a and p *)
  intros Hb Hn Hab Hpb Hap. apply encl_span in Hab, Hpb. split; [exact Hap|].
  unfold nested in Hn. rewrite kl_open_open in Hap. rewrite kl_close_close. unfold eend in *. lia.
Qed.

Lemma kl_trans x y z : kl x y -> kl y z -> kl x z.
Proof. unfold kl. apply key_lt_trans. Qed.
Lemma kl_irrefl x : ~ kl x x.
Proof. unfold kl. rewrite key_lt_irrefl. discriminate. Qed.

Record wf_family (F : list ev) : Prop := {
  wf_pos : forall e, In e F -> 0 < dur e;
  wf_ids : NoDup (map idx F);
  wf_nested : forall a b, In a F -> In b F -> idx a <> idx b -> nested a b }.

(* an event of the family is determined by its id, hence by either of its ends *)
Lemma same_idx_same_ev F a b : wf_family F -> In a F -> In b F -> idx a = idx b -> a = b.
Proof. intro Hwf. exact (NoDup_map_eq idx F a b (wf_ids F Hwf)). Qed.

Lemma open_inj F a b : wf_family F -> In a F -> In b F -> open_new a = open_new b -> a = b.
Proof. intros Hwf Ha Hb E. apply (same_idx_same_ev F); auto. exact (f_equal e_idx E). Qed.
Lemma close_inj F a b : wf_family F -> In a F -> In b F -> close_new a = close_new b -> a = b.
Proof. intros Hwf Ha Hb E. apply (same_idx_same_ev F); auto. exact (f_equal e_idx E). Qed.

Lemma in_endpoints F x : In x (endpoints_new F) <-> exists e, In e F /\ (x = open_new e \/ x = close_new e).
Proof.
  unfold endpoints_new. rewrite in_app_iff, !in_map_iff. split.
  - intros [[e [E He]]|[e [E He]]]; exists e; auto.
  - intros [e [He [E|E]]]; [left | right]; exists e; auto.
Qed.

Definition sortedK (l : list ep) : Prop := StronglySorted kl l.

Lemma sorted_snoc_lt (pre : list ep) x : sortedK (pre ++ [x]) -> forall y, In y pre -> kl y x.
Proof. intro Hs. apply (StronglySorted_split kl pre x [] Hs). Qed.

Definition edges (st : list ev) (r : list ep) : list (Z * Z) := machine OPEN_END (-1) (map idx st) r.

(* the machine's two moves, on the ends of events *)
Lemma edges_open st b r : edges st (open_new b :: r) = (idx b, hd (-1) (map idx st)) :: edges (b :: st) r.
Proof. reflexivity. Qed.
Lemma edges_close t st b r : edges (t :: st) (close_new b :: r) = edges st r.
Proof. reflexivity. Qed.

(* the parent the property asks for: the encloser that every other encloser encloses, or the root if there is none *)
Definition innermost_of (F : list ev) (b : ev) (p : Z) : Prop :=
  (p = -1 /\ forall a, In a F -> ~ encl a b) \/
  (exists a, In a F /\ idx a = p /\ encl a b /\ forall a', In a' F -> encl a' b -> idx a' <> idx a -> encl a' a).

Section Machine.
  Variable F : list ev.
  Variable W : list ep.
  Hypothesis Hwf : wf_family F.
  Hypothesis Hperm : Permutation (endpoints_new F) W.
  Hypothesis Hsorted : sortedK W.

  Lemma in_W x : In x W <-> exists e, In e F /\ (x = open_new e \/ x = close_new e).
  Proof. rewrite <- in_endpoints. split; apply Permutation_in; [apply Permutation_sym|]; exact Hperm. Qed.

  (* where an end lies in W is decided by its key: everything before the cursor x is smaller, everything after is larger *)
  Lemma at_cursor pre x r : W = pre ++ x :: r ->
    (forall y, In y pre -> kl y x) /\ (forall y, In y r -> kl x y) /\
    (forall y, In y W -> kl y x -> In y pre) /\ (forall y, In y W -> kl x y -> In y r).
  Proof.
    intro HW. pose proof Hsorted as Hs. rewrite HW in Hs. apply StronglySorted_split in Hs. destruct Hs as [Hpre Hpost].
    split; [exact Hpre|]. split; [exact Hpost|].
    split; intros y Hy Hk; rewrite HW in Hy; apply in_app_or in Hy; destruct Hy as [Hy|[Hy|Hy]]; auto; exfalso.
    - subst. exact (kl_irrefl _ Hk).
    - exact (kl_irrefl _ (kl_trans _ _ _ (Hpost y Hy) Hk)).
    - exact (kl_irrefl _ (kl_trans _ _ _ Hk (Hpre y Hy))).
    - subst. exact (kl_irrefl _ Hk).
  Qed.

  (* st: the events opened in pre and not yet closed, latest opened first *)
  Definition Inv (st : list ev) (pre r : list ep) : Prop :=
    (forall e, In e st <-> (In e F /\ In (open_new e) pre /\ In (close_new e) r)) /\
    StronglySorted (fun x y => kl (open_new y) (open_new x)) st.

  (* an opening end: the stack holds exactly the enclosers of b, the latest opened on top, so the top is the innermost *)
  Lemma open_step pre b r st : W = pre ++ open_new b :: r -> In b F -> Inv st pre (open_new b :: r) ->
    Inv (b :: st) (pre ++ [open_new b]) r /\ innermost_of F b (hd (-1) (map idx st)) /\ ~ In (open_new b) r.
  Proof.
    intros HW Hb [Hmem Hstk]. destruct (at_cursor pre _ r HW) as [Hpre [Hpost [Hbefore Hafter]]].
    pose proof (wf_pos F Hwf b Hb) as Hposb.
    assert (Hends : forall e, In e F -> In (open_new e) W /\ In (close_new e) W) by (intros e He; split; apply in_W; eauto).
    assert (Hst_encl : forall a, In a st -> encl a b /\ idx a <> idx b).
    { intros a Ha. apply Hmem in Ha. destruct Ha as [HaF [Hao Hac]].
      assert (Hne : idx a <> idx b).
      { intro E. rewrite (same_idx_same_ev F a b Hwf HaF Hb E) in Hao. exact (kl_irrefl _ (Hpre _ Hao)). }
      split; [|exact Hne]. destruct Hac as [Hac|Hac]; [discriminate Hac|].
      apply straddle_encl; auto using (wf_nested F Hwf). }
    assert (Hencl_st : forall a, In a F -> encl a b -> In a st).
    { intros a HaF Hab. apply Hmem. split; [exact HaF|]. split.
      - apply Hbefore; [apply Hends, HaF | exact (proj1 Hab)].
      - right. apply Hafter; [apply Hends, HaF | apply encl_straddle; auto using (wf_pos F Hwf)]. }
    split; [|split].
    - split.
      + intro e. rewrite in_app_iff. cbn [In]. rewrite Hmem. cbn [In]. split.
        * intros [He|[HeF [Heo [Hec|Hec]]]]; [subst e | discriminate Hec | tauto].
          split; [exact Hb|]. split; [tauto|]. apply Hafter; [apply Hends, Hb | apply open_lt_close, Hposb].
        * intros [HeF [[Heo|[Heo|[]]] Hec]]; [tauto|]. left. apply (open_inj F); auto.
      + constructor; [exact Hstk|]. rewrite Forall_forall. intros a Ha. apply Hpre, Hmem, Ha.
    - destruct st as [|t st']; [left; split; [reflexivity | exact Hencl_st]|].
      right. exists t. destruct (Hst_encl t (or_introl eq_refl)) as [Henc Hne].
      pose proof (proj1 (proj1 (Hmem t) (or_introl eq_refl))) as HtF.
      split; [exact HtF|]. split; [reflexivity|]. split; [exact Henc|].
      (* any other encloser lies deeper in the stack, so it opened before t *)
      intros a' Ha'F Ha'enc Hne'. destruct (Hencl_st a' Ha'F Ha'enc) as [E|Ha'st]; [subst; congruence|].
      apply StronglySorted_inv in Hstk. destruct Hstk as [_ Hall]. rewrite Forall_forall in Hall.
      apply (enclosers_chain a' t b); auto using (wf_nested F Hwf).
    - intro H. exact (kl_irrefl _ (Hpost _ H)).
  Qed.

  (* a closing end: the top of the stack is the event being closed; were it another event t, the ends of b and t would cross *)
  Lemma close_step pre b r st : W = pre ++ close_new b :: r -> In b F -> Inv st pre (close_new b :: r) ->
    exists st', st = b :: st' /\ Inv st' (pre ++ [close_new b]) r.
  Proof.
    intros HW Hb [Hmem Hstk]. destruct (at_cursor pre _ r HW) as [Hpre [Hpost [Hbefore _]]].
    assert (Hb_st : In b st).
    { apply Hmem. split; [exact Hb|]. split; [|left; reflexivity].
      apply Hbefore; [apply in_W; eauto | apply open_lt_close, (wf_pos F Hwf b Hb)]. }
    destruct st as [|t st']; [destruct Hb_st|]. apply StronglySorted_inv in Hstk. destruct Hstk as [Hstk Hall].
    rewrite Forall_forall in Hall.
    assert (Htop : t = b).
    { destruct Hb_st as [E|Hb_st']; [exact E|]. exfalso. specialize (Hall b Hb_st').
      destruct (proj1 (Hmem t) (or_introl eq_refl)) as [HtF [Hto Htc]].
      assert (Hne : idx b <> idx t).
      { intro E. rewrite (same_idx_same_ev F b t Hwf Hb HtF E) in Hall. exact (kl_irrefl _ Hall). }
      destruct Htc as [Htc|Htc]; [exact (Hne (f_equal e_idx Htc))|].
      apply (no_crossing b t); auto using (wf_nested F Hwf). }
    subst t. exists st'. split; [reflexivity|]. split; [|exact Hstk].
    intro e. rewrite in_app_iff. cbn [In]. split.
    - intro He. destruct (proj1 (Hmem e) (or_intror He)) as [HeF [Heo [Hec|Hec]]]; [|tauto].
      (* e = b would put b twice on a stack that is strictly sorted *)
      exfalso. rewrite <- (close_inj F b e Hwf Hb HeF Hec) in He. exact (kl_irrefl _ (Hall b He)).
    - intros [HeF [[Heo|[Heo|[]]] Hec]]; [|discriminate Heo].
      destruct (proj2 (Hmem e) (conj HeF (conj Heo (or_intror Hec)))) as [E|He]; [|exact He].
      subst e. exfalso. exact (kl_irrefl _ (Hpost _ Hec)).
  Qed.

  (* the run from the cursor on: r the ends still to come, st the stack.  Every edge still to be emitted gives an event that
     opens in r its innermost encloser, every such event gets an edge, and no event gets two. *)
  Lemma main : forall r pre st, W = pre ++ r -> Inv st pre r ->
    (forall c p, In (c, p) (edges st r) -> exists b, In b F /\ idx b = c /\ In (open_new b) r /\ innermost_of F b p) /\
    (forall b, In b F -> In (open_new b) r -> exists p, In (idx b, p) (edges st r)) /\
    NoDup (map fst (edges st r)).
  Proof.
    induction r as [|x r IH]; intros pre st HW Hinv.
    - split; [intros c p [] | split; [intros b0 _ [] | constructor]].
    - assert (HW' : W = (pre ++ [x]) ++ r) by (rewrite <- app_assoc; exact HW).
      assert (HxW : In x W) by (rewrite HW; apply in_elt).
      apply in_W in HxW. destruct HxW as [b [Hb [E|E]]]; subst x.
      + (* b gets the top of the stack as parent and is pushed *)
        destruct (open_step pre b r st HW Hb Hinv) as (Hinv' & Hinner & Hfresh).
        destruct (IH _ _ HW' Hinv') as [IH1 [IH2 IH3]]. rewrite edges_open.
        split; [|split].
        * intros c p [H|H].
          -- injection H as <- <-. exists b. auto using in_eq.
          -- destruct (IH1 c p H) as [b' [Hb' [Hc [Ho Hin]]]]. exists b'. auto using in_cons.
        * intros b' Hb' [Ho|Ho]; [|destruct (IH2 b' Hb' Ho) as [p Hp]; exists p; right; exact Hp].
          rewrite <- (open_inj F b b' Hwf Hb Hb' Ho). eexists. left. reflexivity.
        * cbn [map fst]. constructor; [|exact IH3]. intro Hin. apply in_map_iff in Hin. destruct Hin as [[c p] [Hc Hin]].
          cbn [fst] in Hc. subst c. destruct (IH1 _ p Hin) as [b' [Hb' [Hc [Ho _]]]].
          rewrite (same_idx_same_ev F b' b Hwf Hb' Hb Hc) in Ho. exact (Hfresh Ho).
      + (* b is popped: no edge *)
        destruct (close_step pre b r st HW Hb Hinv) as (st' & -> & Hinv').
        destruct (IH _ _ HW' Hinv') as [IH1 [IH2 IH3]]. rewrite edges_close.
        split; [|split; [|exact IH3]].
        * intros c p H. destruct (IH1 c p H) as [b' [Hb' [Hc [Ho Hin]]]]. exists b'. auto using in_cons.
        * intros b' Hb' [Ho|Ho]; [discriminate Ho | exact (IH2 b' Hb' Ho)].
  Qed.

  Theorem parent_innermost :
    (forall b, In b F -> exists p, In (idx b, p) (machine OPEN_END (-1) [] W) /\ innermost_of F b p) /\
    (forall c p, In (c, p) (machine OPEN_END (-1) [] W) -> exists b, In b F /\ idx b = c /\ innermost_of F b p) /\
    NoDup (map fst (machine OPEN_END (-1) [] W)).
  Proof.
    assert (Hinv : Inv [] [] W).
    { split; [|constructor]. intro e. split; [intros [] | intros [_ [[] _]]]. }
    destruct (main W [] [] eq_refl Hinv) as [H1 [H2 H3]]. unfold edges in *. cbn [map] in *.
    split; [|split; [|exact H3]].
    - intros b Hb. destruct (H2 b Hb) as [p Hp]; [apply in_W; eauto|]. exists p. split; [exact Hp|].
      destruct (H1 _ _ Hp) as [b' [Hb' [Hc [_ Hin]]]]. rewrite <- (same_idx_same_ev F b' b Hwf Hb' Hb Hc). exact Hin.
    - intros c p H. destruct (H1 c p H) as [b [Hb [Hc [_ Hin]]]]. exists b. auto.
  Qed.
End Machine.

Lemma insert_by_ok lt : is_insert lt (insert_by lt).
Proof. split; reflexivity. Qed.

Lemma endpoints_nodup F : wf_family F -> NoDup (endpoints_new F).
Proof.
  intro Hwf. pose proof (NoDup_map_inv idx F (wf_ids F Hwf)) as Hnd. unfold endpoints_new. apply NoDup_app_intro.
  - apply NoDup_map_inj; [intros a b; apply (open_inj F a b Hwf) | exact Hnd].
  - apply NoDup_map_inj; [intros a b; apply (close_inj F a b Hwf) | exact Hnd].
  - intros x Hx1 Hx2. apply in_map_iff in Hx1. destruct Hx1 as [a [Ea _]]. apply in_map_iff in Hx2. destruct Hx2 as [b [Eb _]].
    subst x. discriminate Eb.
Qed.

(* on the ends of a well-formed family the generated comparator IS the key order, and the key order is total; stated in the
   form isort_sorted asks of a comparison *)
Lemma lt_new_decides F a b : wf_family F -> In a (endpoints_new F) -> In b (endpoints_new F) -> a <> b ->
  if lt_new a b then kl a b else kl b a.
Proof.
  intros Hwf Ha Hb Hab. apply in_endpoints in Ha, Hb. destruct Ha as [ea [Hea Ea]], Hb as [eb [Heb Eb]].
  pose proof (wf_pos F Hwf ea Hea) as Hpa. pose proof (wf_pos F Hwf eb Heb) as Hpb.
  assert (Hka : okk a) by (destruct Ea; subst a; unfold okk, open_new, close_new, OPEN_END, CLOSE_END; cbn; lia).
  assert (Hkb : okk b) by (destruct Eb; subst b; unfold okk, open_new, close_new, OPEN_END, CLOSE_END; cbn; lia).
  unfold lt_new. rewrite less_than_is_key_order; [| exact Hka | exact Hkb |].
  - destruct (key_lt a b) eqn:E1; [exact E1|]. destruct (key_lt b a) eqn:E2; [exact E2|]. exfalso. apply Hab.
    destruct (key_lt_total a b (proj2 Hka) (proj2 Hkb) E1 E2) as [H1 [H2 [H3 H4]]]. destruct a, b. cbn in *. congruence.
  - (* the two ends of one event are a positive duration apart *)
    intro Ei. assert (ea = eb) by (apply (same_idx_same_ev F); auto; destruct Ea, Eb; subst a b; exact Ei). subst eb.
    destruct Ea, Eb; subst a b; cbn; try lia; congruence.
Qed.

(* zero-duration events: the generated comparator is cyclic (the witness of C03_zero_duration_refuted).
   A = [0,2), B = [2,4), Z = [2,2]: B.open < Z.open < Z.close < A.close < B.open *)
Definition epA_close := mkEp 1 2 CLOSE_END 2.
Definition epB_open := mkEp 2 2 OPEN_END 2.
Definition epZ_open := mkEp 3 0 OPEN_END 2.
Definition epZ_close := mkEp 3 0 CLOSE_END 2.
