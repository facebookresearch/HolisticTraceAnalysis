From HTA.lib Require Import Base.
From HTA.gen Require Import SaveFields_gen.
From HTA.model Require Import C19_Model.

Lemma assoc_map V (g : string -> V) f l d : assoc V f (map (fun k => (k, g k)) l) d = if str_in f l then g f else d.
Proof.
  induction l as [|k l IH]; cbn [map assoc str_in existsb orb]; [reflexivity|].
  destruct (String.eqb_spec f k) as [->|_]; [reflexivity | exact IH].
Qed.

(* what __init__ sets or the trace csv gives back is covered by the definition of field_covered, whatever the lists hold *)
Lemma init_other_covered k : In k init_fields \/ In k restored_other -> field_covered k = true.
Proof.
  rewrite <- !str_in_In. unfold field_covered. intros [-> | ->]; [rewrite orb_true_r; reflexivity | apply orb_true_r].
Qed.

Section SaveRestore.
  Variables V G T PG PT PD : Type.
  Variable encG : G -> PG.  Variable decG : PG -> G.
  Variable encT : T -> PT.  Variable decT : PT -> T.
  Variable encD : list (string * V) -> PD.  Variable decD : PD -> list (string * V).
  (* the codecs round-trip on the values that occur (pickle, node-link, CSV: runtime behaviour, assumed and exercised) *)
  Hypothesis codecG : forall g, decG (encG g) = g.
  Hypothesis codecT : forall t, decT (encT t) = t.
  Hypothesis codecD : forall d, decD (encD d) = d.

  Notation gstate := (gstate V G T).
  Notation s_attr := (s_attr V G T).
  Notation save := (save V G T PG PT PD encG encT encD).
  Notation restore := (restore V G T PG PT PD decG decT decD).
  Notation observe := (observe V G T).

  (* an attribute after one cycle: the saved value if the field is both saved and restored, the fresh instance's otherwise *)
  Lemma restore_save_attr (base : string -> V) (s : gstate) f :
    s_attr (restore base (save s)) f = if str_in f restored_fields && str_in f saved_fields then s_attr s f else base f.
  Proof.
    cbn [C19_Model.save C19_Model.restore C19_Model.s_attr]. rewrite codecD, assoc_map.
    destruct (str_in f restored_fields), (str_in f saved_fields); reflexivity.
  Qed.

  (* one save / restore cycle: every covered attribute comes back unchanged, provided the fresh instance agrees with the
     original on the attributes __init__ sets (same full trace, same rank) and on the frame *)
  Theorem roundtrip_attr (base : string -> V) (s : gstate) f :
    field_covered f = true ->
    (forall k, In k init_fields \/ In k restored_other -> base k = s_attr s k) ->
    s_attr (restore base (save s)) f = s_attr s f.
  Proof.
    intros Hc Hbase. rewrite restore_save_attr. unfold field_covered in Hc.
    destruct (str_in f restored_fields && str_in f saved_fields); [reflexivity|].
    apply Hbase. rewrite <- !str_in_In. apply orb_prop. exact Hc.
  Qed.

  (* any number of cycles: the graph, the frame and every attribute the observers read come back unchanged *)
  Theorem cycles_observe (base : string -> V) n : forall s : gstate,
    fields_covered = true ->
    (forall k, In k init_fields \/ In k restored_other -> base k = s_attr s k) ->
    observe (cycles V G T PG PT PD encG decG encT decT encD decD n base s) = observe s.
  Proof.
    induction n as [|n IH]; intros s Hcov Hbase; [reflexivity|]. cbn [cycles]. rewrite IH; [|exact Hcov|].
    - (* one cycle *)
      unfold observe. f_equal; [f_equal|]; [apply codecG | apply codecT |].
      apply map_ext_in. intros f Hf. apply roundtrip_attr; [|exact Hbase].
      unfold fields_covered in Hcov. rewrite forallb_forall in Hcov. apply Hcov, Hf.
    - (* the restored state agrees with the fresh instance where the original did *)
      intros k Hk. rewrite roundtrip_attr; auto using init_other_covered.
  Qed.
End SaveRestore.
