(* Device side of the critical-path graph: for EVERY processing sequence that is causally consistent (an activity starts no earlier than
   its launch call and than the end of the previous activity of its stream; a synchronising call returns no earlier than the work it
   waits for) every edge the loop emits points forward in time, weighs the time difference or zero as its type prescribes, and joins
   what its type stands for. *)
From HTA.lib Require Import Base.
From HTA.model Require Import C08_Host C08_Dev.
Open Scope list_scope.
Open Scope Z_scope.

Definition DGood (e : hedge) : Prop :=
  n_ts (he_src e) <= n_ts (he_dst e) /\ 0 <= he_w e /\
  (he_ty e = 0 /\ he_w e = n_ts (he_dst e) - n_ts (he_src e) /\ n_start (he_src e) = true /\ n_start (he_dst e) = false /\
     n_ev (he_src e) = n_ev (he_dst e) /\ he_attr e = n_ev (he_src e)
   \/ he_ty e = 2 /\ n_start (he_src e) = true /\ n_start (he_dst e) = true /\ (he_w e = n_ts (he_dst e) - n_ts (he_src e) \/ he_w e = 0)
   \/ he_ty e = 3 /\ n_start (he_src e) = false /\ n_start (he_dst e) = true /\ he_w e = n_ts (he_dst e) - n_ts (he_src e) /\
     he_attr e = n_ev (he_src e)
   \/ he_ty e = 4 /\ he_w e = 0 /\ n_start (he_src e) = false /\ n_start (he_dst e) = false).

Definition ends_only (st : list (Z * hnode)) : Prop := Forall (fun sn : Z * hnode => n_start (snd sn) = false) st.

Lemma last_of_end s st n : ends_only st -> last_of s st = Some n -> n_start n = false.
Proof.
  intro He. induction He as [|[a m] r Hm _ IH]; cbn [last_of]; [discriminate|].
  destruct (a =? s); [|exact IH]. intro H. injection H as <-. exact Hm.
Qed.

Lemma set_last_ends s n : forall st, ends_only st -> n_start n = false -> ends_only (set_last s n st).
Proof.
  induction st as [|[a m] r IH]; intros He Hn; simpl.
  - constructor; [exact Hn | constructor].
  - inversion He as [|x l Hx Hl]; subst. destruct (a =? s); constructor; [exact Hn | exact Hl | exact Hx | apply IH; assumption].
Qed.

(* dwf follows the loop with zw = false: the flag adds edges and leaves the state alone *)
Lemma dstep_state zw st r : fst (fst (dstep zw st r)) = fst (fst (dstep false st r)).
Proof. destruct r; reflexivity. Qed.

Lemma dstep_ends zw st r : ends_only st -> ends_only (fst (fst (dstep zw st r))).
Proof.
  intro He. destruct r as [eid s t0 t1 rt rt_ts rt_has q_rt q_k | s rt rt_end rt_has | rt rt_end rt_has | ]; cbn [dstep fst]; try exact He.
  - apply set_last_ends; [exact He | reflexivity].
  - destruct (last_of s st); exact He.
Qed.

Lemma dstep_inv zw st r e : In e (snd (fst (dstep zw st r))) ->
  match r with
  | DK eid s t0 t1 rt rt_ts rt_has q_rt q_k =>
      e = mkHE (mkHN eid true t0) (mkHN eid false t1) (t1 - t0) 0 eid
      \/ e = mkHE (mkHN rt true rt_ts) (mkHN eid true t0) (t0 - rt_ts) 2 (-2)
      \/ (exists n, last_of s st = Some n /\ e = mkHE n (mkHN eid true t0) (t0 - n_ts n) 3 (n_ev n))
      \/ zw = true /\ e = mkHE (mkHN rt true rt_ts) (mkHN eid true t0) 0 2 (-2)
  | DS s rt rt_end _ => exists n, last_of s st = Some n /\ e = mkHE n (mkHN rt false rt_end) 0 4 (-2)
  | DC rt rt_end _ => exists sn, In sn st /\ e = mkHE (snd sn) (mkHN rt false rt_end) 0 4 (-2)
  | DE => False
  end.
Proof.
  destruct r as [eid s t0 t1 rt rt_ts rt_has q_rt q_k | s rt rt_end rt_has | rt rt_end rt_has | ]; cbn [dstep fst snd].
  - rewrite !in_app_iff. intros [[<-|[]]|[H|H]].
    + left. reflexivity.
    + right. destruct (_ && _ && _); [destruct H as [<-|[]]; left; reflexivity|].
      destruct (last_of s st) as [n|]; [|destruct H]. destruct H as [<-|[]]. right; left. exists n. auto.
    + destruct zw; [|destruct H]. destruct (true && _ && rt_has); [|destruct H]. destruct H as [<-|[]]. right; right; right. auto.
  - destruct (last_of s st) as [n|]; cbn [fst snd]; [|intros []]. destruct rt_has; [|intros []]. intros [<-|[]]. exists n. auto.
  - destruct rt_has; [|intros []]. rewrite in_map_iff. intros (sn & <- & Hin). exists sn. auto.
  - intros [].
Qed.

Lemma dgood_span i t0 t1 : t0 <= t1 -> DGood (mkHE (mkHN i true t0) (mkHN i false t1) (t1 - t0) 0 i).
Proof. intro H. split; [exact H|]. split; [cbn; lia|]. left. repeat split. Qed.

Lemma dgood_launch i j t0 t w : t0 <= t -> w = t - t0 \/ w = 0 -> DGood (mkHE (mkHN j true t0) (mkHN i true t) w 2 (-2)).
Proof. intros H Hw. split; [exact H|]. split; [cbn in *; lia|]. right; left. repeat split. exact Hw. Qed.

Lemma dgood_gap n i t : n_start n = false -> n_ts n <= t -> DGood (mkHE n (mkHN i true t) (t - n_ts n) 3 (n_ev n)).
Proof. intros Hn H. split; [exact H|]. split; [cbn; lia|]. right; right; left. repeat split. exact Hn. Qed.

Lemma dgood_sync n i t : n_start n = false -> n_ts n <= t -> DGood (mkHE n (mkHN i false t) 0 4 (-2)).
Proof. intros Hn H. split; [exact H|]. split; [apply Z.le_refl|]. right; right; right. repeat split. exact Hn. Qed.

Lemma dstep_good zw st r : ends_only st -> dwf_step st r = true -> Forall DGood (snd (fst (dstep zw st r))).
Proof.
  intros He Hw. apply Forall_forall. intros e Hin. apply dstep_inv in Hin.
  destruct r as [eid s t0 t1 rt rt_ts rt_has q_rt q_k | s rt rt_end rt_has | rt rt_end rt_has | ]; cbn [dwf_step] in Hw.
  - rewrite !andb_true_iff, !Z.leb_le in Hw. destruct Hw as [[H1 H2] H3]. destruct Hin as [->|[->|[(n & El & ->)|[_ ->]]]].
    + exact (dgood_span eid t0 t1 H1).
    + exact (dgood_launch eid rt rt_ts t0 _ H2 (or_introl eq_refl)).
    + rewrite El in H3. apply Z.leb_le in H3. exact (dgood_gap n eid t0 (last_of_end s st n He El) H3).
    + exact (dgood_launch eid rt rt_ts t0 _ H2 (or_intror eq_refl)).
  - destruct Hin as (n & El & ->). rewrite El in Hw. apply Z.leb_le in Hw. exact (dgood_sync n rt rt_end (last_of_end s st n He El) Hw).
  - destruct Hin as (sn & Hsn & ->). rewrite forallb_forall in Hw. specialize (Hw sn Hsn). apply Z.leb_le in Hw.
    exact (dgood_sync (snd sn) rt rt_end (proj1 (Forall_forall _ _) He sn Hsn) Hw).
  - destruct Hin.
Qed.

Lemma drun_good zw : forall rows st, ends_only st -> dwf st rows = true -> Forall DGood (fst (drun zw st rows)).
Proof.
  induction rows as [|r rest IH]; intros st He Hw; [constructor|].
  cbn [dwf] in Hw. apply andb_prop in Hw. destruct Hw as [H1 H2]. rewrite <- (dstep_state zw st r) in H2.
  pose proof (dstep_good zw st r He H1) as Hg. pose proof (dstep_ends zw st r He) as He'. cbn [drun].
  destruct (dstep zw st r) as [[st' es] ok]. cbn [fst snd] in *.
  specialize (IH st' He' H2). destruct (drun zw st' rest) as [es' ok']. apply Forall_app. split; assumption.
Qed.
