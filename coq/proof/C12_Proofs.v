From HTA.lib Require Import Base ListExtra.
From HTA.model Require Import Loader_Model.
Open Scope Z_scope.

(* _get_profiler_step: the half-open span test *)
Definition in_step (t : Z) (s : ev) : bool := (ts s <=? t) && (t <? ts s + dur s).

(* the fold keeps the last step that contains t: the first one found from the end *)
Lemma step_of_find steps t :
  step_of steps t = match find (in_step t) (rev steps) with Some s => step_no (name s) | None => -1 end.
Proof. apply (fold_left_last (in_step t) (fun s => step_no (name s))). Qed.

(* no two steps with different numbers contain the same instant (disjoint half-open spans) *)
Definition steps_unambiguous (steps : list ev) : Prop :=
  forall t s1 s2, In s1 steps -> In s2 steps -> in_step t s1 = true -> in_step t s2 = true ->
                  step_no (name s1) = step_no (name s2).

Lemma in_step_spec t s : in_step t s = true <-> ts s <= t < ts s + dur s.
Proof. unfold in_step. rewrite andb_true_iff, Z.leb_le, Z.ltb_lt. reflexivity. Qed.

Theorem step_of_contains steps t s :
  steps_unambiguous steps -> In s steps -> ts s <= t < ts s + dur s -> step_of steps t = step_no (name s).
Proof.
  intros Hu Hs Ht. apply in_step_spec in Ht. rewrite step_of_find.
  destruct (find (in_step t) (rev steps)) as [s'|] eqn:F.
  - apply find_some in F. destruct F as [Hs' Ht']. apply in_rev in Hs'. apply (Hu t); assumption.
  - rewrite (find_none _ _ F s) in Ht; [discriminate | apply in_rev in Hs; exact Hs].
Qed.

Theorem step_of_none steps t :
  (forall s, In s steps -> ~ (ts s <= t < ts s + dur s)) -> step_of steps t = -1.
Proof.
  intro Hn. rewrite step_of_find. destruct (find (in_step t) (rev steps)) as [s'|] eqn:F; [|reflexivity].
  apply find_some in F. destruct F as [Hs' Ht']. apply in_rev in Hs'. apply in_step_spec in Ht'.
  destruct (Hn s' Hs' Ht').
Qed.

Lemma iter_of_host l e : stream e < 0 -> iter_of l e = step_of (step_rows l) (ts e).
Proof. intro H. unfold iter_of. apply Z.ltb_lt in H. rewrite H. reflexivity. Qed.

Theorem add_iter_rows l e' : In e' (add_iter l) <-> exists e, In e l /\ e' = set_iter e (iter_of l e).
Proof. unfold add_iter. rewrite in_map_iff. split; intros [e [H1 H2]]; exists e; split; auto. Qed.

Definition last_start (l : list ev) : Z := maxZ 0 (map ts (host_steps l)).
Definition last_end (l : list ev) : Z := maxZ 0 (map eend (host_steps l)).
Definition cut (incl : bool) (l : list ev) (e : ev) : Prop :=
  if incl then ts e <= last_end l else ts e < last_start l.

Lemma keep_host_spec incl l e : keep_host incl l e = true <-> is_host e = true /\ cut incl l e.
Proof.
  unfold keep_host, cut, last_end, last_start. rewrite andb_true_iff.
  destruct incl; [rewrite Z.leb_le | rewrite Z.ltb_lt]; tauto.
Qed.

Lemma kept_host_In incl l e : In e (kept_host incl l) <-> In e l /\ is_host e = true /\ cut incl l e.
Proof. unfold kept_host. rewrite filter_In, keep_host_spec. reflexivity. Qed.

Lemma kept_dev_In incl l e :
  In e (kept_dev incl l) <->
  In e l /\ is_dev e = true /\ exists c, In c l /\ is_host c = true /\ cut incl l c /\ corr c = corr e.
Proof.
  unfold kept_dev. rewrite !filter_In, existsb_exists. split.
  - intros [He [c [Hc E]]]. apply kept_host_In in Hc. apply Z.eqb_eq in E. repeat split; try tauto. exists c. tauto.
  - intros [He [Hd [c [Hc [Hh [Hcut E]]]]]]. split; [tauto|]. exists c. rewrite kept_host_In, Z.eqb_eq. tauto.
Qed.

Lemma trim_incl incl l e : In e (trim incl l) -> In e l.
Proof.
  unfold trim. destruct (Z.of_nat (List.length (host_steps l)) <? 2); [auto|].
  rewrite in_app_iff, kept_dev_In, kept_host_In. tauto.
Qed.

(* whatever identifies the rows of a frame identifies the rows kept: nothing is duplicated, however many kept host rows
   carry a device row's correlation id *)
Theorem trim_map_no_dup {B} (f : ev -> B) incl l : NoDup (map f l) -> NoDup (map f (trim incl l)).
Proof.
  intro Hnd. unfold trim. destruct (Z.of_nat (List.length (host_steps l)) <? 2); [exact Hnd|].
  rewrite map_app. apply NoDup_app_intro.
  - unfold kept_dev. apply NoDup_map_filter, NoDup_map_filter. exact Hnd.
  - unfold kept_host. apply NoDup_map_filter. exact Hnd.
  - intros x Hg Hc. apply in_map_iff in Hg. destruct Hg as [g [Eg Hg]]. apply in_map_iff in Hc. destruct Hc as [c [Ec Hc]].
    apply kept_dev_In in Hg. destruct Hg as [Hgl [Hdev _]]. apply kept_host_In in Hc. destruct Hc as [Hcl [Hhost _]].
    assert (g = c) by (apply (NoDup_map_eq f l); congruence).
    subst c. unfold is_host in Hhost. rewrite Hdev in Hhost. discriminate.
Qed.
