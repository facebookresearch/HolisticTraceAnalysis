(* C05: resolution independence of the kernel-type table (every combination's time is multiplied by k) *)
From HTA.lib Require Import Base.
From HTA.model Require Import C05_Model.
From HTA.proof Require Import Scale C04_Scale.
Open Scope Z_scope.

Lemma type_rows_scale k v tys l : 0 < k -> type_rows v tys (scale_evs k l) = map (srow k) (type_rows v tys l).
Proof.
  intro Hk. revert v. induction tys as [|ty r IH]; intro v; cbn [type_rows map]; [reflexivity|].
  unfold type_itvs. rewrite itvs_scale by reflexivity. rewrite sort_ts_scale, merge_sorted_scale, rows_of_scale by exact Hk.
  rewrite map_app, IH. reflexivity.
Qed.
