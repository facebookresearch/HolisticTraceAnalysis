(* C08: the analysed window and the kept rows at every resolution *)
From HTA.lib Require Import ListExtra Base.
From HTA.model Require Import C08_Clip.
From HTA.proof Require Import Scale.
Open Scope list_scope.
Open Scope Z_scope.

Lemma window_scale k ann i j l : 0 < k ->
  window ann i j (scale_evs k l) = (k * fst (window ann i j l), k * snd (window ann i j l)).
Proof.
  intro Hk. unfold window, slice.
  (* in both cases the hull of a selection that does not look at the times *)
  assert (H : forall sel, (minZ 0 (map ts (scale_evs k sel)), maxZ 0 (map eend (scale_evs k sel))) =
                          (k * minZ 0 (map ts sel), k * maxZ 0 (map eend sel))).
  { intro sel. rewrite map_ts_scale, map_eend_scale, minZ0_scale, maxZ0_scale by apply Z.lt_le_incl, Hk. reflexivity. }
  destruct (String.eqb ann ""); cbn [fst snd]; [apply H|].
  unfold scale_evs. rewrite filter_map_swap, skipn_map, firstn_map. apply H.
Qed.

Lemma in_window_scale k lo hi e : 0 < k -> in_window (k * lo) (k * hi) (scale_ev k e) = in_window lo hi e.
Proof. intro Hk. unfold in_window. cbn [scale_ev ts dur]. rewrite !leb_scale, ltb0_scale by exact Hk. reflexivity. Qed.

Lemma partner_scale k l d : partner (scale_evs k l) (scale_ev k d) = option_map (scale_ev k) (partner l d).
Proof. apply find_map. reflexivity. Qed.

Lemma dev_kept_scale k lo hi l d : 0 < k -> dev_kept (k * lo) (k * hi) (scale_evs k l) (scale_ev k d) = dev_kept lo hi l d.
Proof.
  intro Hk. unfold dev_kept. rewrite partner_scale. cbn [scale_ev stream name].
  destruct (partner l d) as [h|]; cbn [option_map]; [rewrite in_window_scale by exact Hk|]; reflexivity.
Qed.

Lemma clip_scale k lo hi l : 0 < k -> clip (k * lo) (k * hi) (scale_evs k l) = scale_evs k (clip lo hi l).
Proof.
  intro Hk. apply filter_map_comm. intro e. cbn [scale_ev stream].
  rewrite in_window_scale, (dev_kept_scale k lo hi l e) by exact Hk. reflexivity.
Qed.
