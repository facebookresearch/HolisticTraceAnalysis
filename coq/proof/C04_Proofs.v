From Coq Require Import Permutation.
From HTA.lib Require Import ListExtra Base Cells Intervals.
From HTA.model Require Import C04_Model.

Definition is_min_start (lo : Z) (D : list itv) : Prop :=
  (exists i, In i D /\ fst i = lo) /\ forall i, In i D -> lo <= fst i.
Definition is_max_end (hi : Z) (D : list itv) : Prop :=
  (exists i, In i D /\ snd i = hi) /\ forall i, In i D -> snd i <= hi.

Lemma sorted_bounds s e r :
  sorted_ts ((s, e) :: r) ->
  is_min_start s ((s, e) :: r) /\ is_max_end (max_end e r) ((s, e) :: r).
Proof.
  intro Hs. split.
  - split; [exists (s, e); split; [left|]; reflexivity | exact (sorted_head_min (s, e) r Hs)].
  - rewrite max_end_maxZ. change (e :: map snd r) with (map snd ((s, e) :: r)).
    destruct (maxZ_map_attained snd e ((s, e) :: r)) as (a & Ha & Ea & Hge); [discriminate|].
    split; [exists a; split; assumption | intros i Hi; rewrite <- Ea; apply Hge, Hi].
Qed.

(* the interval-level statement: D any well-formed non-empty interval set, C any part of it *)
Theorem parts_exact (D C D' C' : list itv) :
  wf_itvs D -> D <> [] -> incl C D ->
  Permutation D D' -> sorted_ts D' -> Permutation C C' -> sorted_ts C' ->
  let '(idle, comp, noncomp, kt) := breakdown D' C' in
  exists lo hi, is_min_start lo D /\ is_max_end hi D /\ lo <= hi /\
    kt = hi - lo /\
    idle = cells (fun t => negb (covered D t)) lo hi /\
    comp = cells (covered C) lo hi /\
    noncomp = cells (fun t => covered D t && negb (covered C t)) lo hi /\
    0 <= idle /\ 0 <= comp /\ 0 <= noncomp /\ idle + comp + noncomp = kt.
Proof.
  (* the window is [first start, last end] of the merged D' (merge_sorted_spec); the two totals are cell counts over it
     (total_merge_any); the window then splits into C, D without C, and the complement of D (cells_add, cells_compl) *)
  intros Hw Hne Hinc HpD HsD HpC HsC. unfold breakdown.
  destruct D' as [|[s e] r].
  { apply Permutation_sym, Permutation_nil in HpD. congruence. }
  assert (HwD' : wf_itvs ((s, e) :: r)) by (apply (Permutation_Forall HpD), Hw).
  destruct (merge_sorted_spec r s e HwD' HsD) as (_ & Hf & Hl & _). rewrite Hf, Hl.
  destruct (sorted_bounds s e r HsD) as [Hmin Hmax].
  remember (max_end e r) as hi eqn:Ehi.
  (* D has the members of D' *)
  unfold is_min_start, is_max_end in Hmin, Hmax. setoid_rewrite <- HpD in Hmin. setoid_rewrite <- HpD in Hmax.
  assert (Hbounds : forall i, In i D -> s <= fst i /\ snd i <= hi).
  { intros i Hi. split; [apply Hmin | apply Hmax]; exact Hi. }
  assert (Hlohi : s <= hi).
  { pose proof (Hbounds (s, e) (Permutation_in _ (Permutation_sym HpD) (or_introl eq_refl))) as Hse'.
    inversion HwD' as [|? ? Hse _]; subst. cbn [fst snd] in *. lia. }
  assert (HwC : wf_itvs C).
  { unfold wf_itvs in *. rewrite Forall_forall in *. intros i Hi. apply Hw, Hinc, Hi. }
  rewrite (total_merge_any D _ s hi), (total_merge_any C C' s hi) by auto.
  assert (Hsplit : cells (covered D) s hi =
                   cells (covered C) s hi + cells (fun t => covered D t && negb (covered C t)) s hi).
  { apply cells_add. intros t _. destruct (covered C t) eqn:EC.
    - rewrite (covered_incl C D t Hinc EC). reflexivity.
    - destruct (covered D t); reflexivity. }
  assert (Hcompl := cells_compl (covered D) s hi Hlohi).
  pose proof (cells_bounds (covered C) s hi).
  pose proof (cells_bounds (fun t => covered D t && negb (covered C t)) s hi).
  pose proof (cells_bounds (fun t => negb (covered D t)) s hi).
  exists s, hi. repeat split; try lia; try apply Hmin; apply Hmax.
Qed.

Definition durs_nonneg (l : list ev) : Prop := forall e, In e l -> 0 <= dur e.

Lemma itvs_wf (p : ev -> bool) l : durs_nonneg l -> wf_itvs (map itv_of (filter p l)).
Proof.
  intro H. apply Forall_map, Forall_forall. intros e He. apply filter_In in He.
  unfold itv_of; simpl. specialize (H e (proj1 He)). lia.
Qed.

Lemma comp_incl_dev l : incl (comp_itvs l) (dev_itvs l).
Proof. unfold comp_itvs, dev_itvs. rewrite <- (filter_filter is_comp on_device). apply incl_map, incl_filter. Qed.
