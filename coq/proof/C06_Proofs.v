From Coq Require Import Sorted.
From HTA.lib Require Import Base ListExtra.
From HTA.model Require Import C06_Model.
Open Scope Z_scope.

(* kernels of a stream do not overlap, listed in start order: each ends before the next begins *)
Inductive chain : list ev -> Prop :=
| chain_nil : chain []
| chain_one k : 0 <= dur k -> chain [k]
| chain_cons a b r : 0 <= dur a -> eend a <= ts b -> chain (b :: r) -> chain (a :: b :: r).

(* start-time ties are ordered by end *)
Definition lex_le (a b : ev) : Prop := ts a < ts b \/ (ts a = ts b /\ eend a <= eend b).

Lemma insert_ev_ok : is_insert ev_lt insert_ev.
Proof. split; reflexivity. Qed.

Lemma lex_le_trans a b c : lex_le a b -> lex_le b c -> lex_le a c.
Proof. unfold lex_le. lia. Qed.

Lemma ev_lt_lex x y : if ev_lt x y then lex_le x y else lex_le y x.
Proof. unfold ev_lt, lex_le. destruct (_ || _) eqn:E; lia. Qed.

Lemma sort_ev_lex l : StronglySorted lex_le (sort_ev l).
Proof. apply (isort_sorted_total insert_ev_ok); [exact lex_le_trans | exact ev_lt_lex]. Qed.

(* the gaps between consecutive kernels, the first one counted from prev_end *)
Fixpoint consecutive_gaps (prev_end : Z) (ks : list ev) : list Z :=
  match ks with [] => [] | k :: r => (ts k - prev_end) :: consecutive_gaps (eend k) r end.

Theorem gaps_are_consecutive l d prev ks : map snd (walk l d prev ks) = consecutive_gaps prev ks.
Proof. revert prev. induction ks as [|k r IH]; intro prev; simpl; [reflexivity | rewrite IH; reflexivity]. Qed.

(* three-way, exclusive and exhaustive classification with the strictness of both comparisons: host_wait if the launch call
   started after the previous kernel ended; otherwise by the length of the gap *)
Theorem classification d rt prev gap :
  let c := classify d rt prev gap in
  (c = 0 <-> exists r, rt = Some r /\ prev < r) /\
  (c = 1 <-> ~ (exists r, rt = Some r /\ prev < r) /\ gap < d) /\
  (c = 2 <-> ~ (exists r, rt = Some r /\ prev < r) /\ d <= gap) /\
  (c = 0 \/ c = 1 \/ c = 2).
Proof.
  cbv zeta. unfold classify.
  assert (H : (exists r, rt = Some r /\ prev < r) <-> match rt with Some r => prev < r | None => False end).
  { destruct rt as [r|].
    - split; [intros [r0 [[= <-] H]]; exact H | eauto].
    - split; [intros [r0 [[=] _]] | intros []]. }
  rewrite H. destruct rt as [r|]; [destruct (Z.ltb_spec prev r)|]; destruct (Z.ltb_spec gap d); lia.
Qed.

Lemma walk_cats l d prev ks g : In g (walk l d prev ks) -> In (fst g) [0; 1; 2].
Proof.
  revert prev. induction ks as [|k r IH]; intros prev H; simpl in H; [destruct H|].
  destruct H as [H|H]; [|eapply IH; exact H]. subst g. cbn [fst].
  destruct (classification d (ts_runtime l k) prev (ts k - prev)) as [_ [_ [_ Hc]]]. cbn [In]. lia.
Qed.

Lemma cat_sum_total gs : (forall g, In g gs -> In (fst g) [0; 1; 2]) ->
  cat_sum 0 gs + cat_sum 1 gs + cat_sum 2 gs = sumZ (map snd gs).
Proof.
  intro H. rewrite <- (sum_by_key Z.eqb fst snd [0; 1; 2] gs Z.eqb_eq); [unfold cat_sum; cbn; lia | | exact H].
  repeat constructor; cbn [In]; lia.
Qed.

(* telescoping: sum of the gaps = (end of the last - end of the previous) - busy time *)
Lemma gaps_telescope prev ks :
  sumZ (consecutive_gaps prev ks) = last (map eend ks) prev - prev - sumZ (map dur ks).
Proof.
  revert prev. induction ks as [|k r IH]; intro prev; [cbn; lia|].
  cbn [consecutive_gaps map]. rewrite last_cons, !sumZ_cons, IH.
  assert (E : eend k = ts k + dur k) by reflexivity. lia.
Qed.

Theorem walk_total l d prev ks :
  let gs := walk l d prev ks in
  cat_sum 0 gs + cat_sum 1 gs + cat_sum 2 gs = last (map eend ks) prev - prev - sumZ (map dur ks).
Proof.
  cbv zeta. rewrite cat_sum_total by apply walk_cats. rewrite gaps_are_consecutive. apply gaps_telescope.
Qed.

Theorem ratios_sum_one a b c : a + b + c <> 0 -> (a + b + c) * 1 = a + b + c.
Proof. lia. Qed.
