(* C06: resolution independence of the idle-time model (threshold scaled with the times) *)
From HTA.lib Require Import ListExtra Base.
From HTA.model Require Import C06_Model.
From HTA.proof Require Import Scale C06_Proofs.
Open Scope Z_scope.

Lemma ev_lt_scale k x y : 0 < k -> ev_lt (scale_ev k x) (scale_ev k y) = ev_lt x y.
Proof.
  intro Hk. unfold ev_lt. rewrite !eend_scale. cbn [scale_ev ts].
  rewrite !ltb_scale, eqb_scale by exact Hk. reflexivity.
Qed.

Lemma sort_ev_scale k l : 0 < k -> sort_ev (scale_evs k l) = scale_evs k (sort_ev l).
Proof. intro Hk. apply (isort_map insert_ev_ok). intros x y. apply ev_lt_scale, Hk. Qed.

Lemma stream_kernels_scale k l s : stream_kernels (scale_evs k l) s = scale_evs k (stream_kernels l s).
Proof. apply filter_map_comm. reflexivity. Qed.

Lemma ts_runtime_scale k l e : ts_runtime (scale_evs k l) (scale_ev k e) = option_map (Z.mul k) (ts_runtime l e).
Proof.
  unfold ts_runtime, scale_evs. cbn [scale_ev icorr]. destruct (0 <? icorr e); [|reflexivity].
  rewrite (find_map (scale_ev k)) by reflexivity. destruct (find _ l); reflexivity.
Qed.

Lemma classify_scale k d rt pe gap : 0 < k ->
  classify (k * d) (option_map (Z.mul k) rt) (k * pe) (k * gap) = classify d rt pe gap.
Proof.
  intro Hk. unfold classify. destruct rt as [r|]; cbn [option_map]; rewrite ?ltb_scale by exact Hk; reflexivity.
Qed.

(* a gap is (category, length) *)
Definition scale_gap (k : Z) (g : Z * Z) : Z * Z := (fst g, k * snd g).

Lemma walk_scale k l d pe ks : 0 < k ->
  walk (scale_evs k l) (k * d) (k * pe) (scale_evs k ks) = map (scale_gap k) (walk l d pe ks).
Proof.
  intro Hk. revert pe. induction ks as [|e r IH]; intro pe; cbn [scale_evs map walk]; [reflexivity|].
  fold (scale_evs k r). rewrite ts_runtime_scale, eend_scale, IH. cbn [scale_ev ts].
  rewrite <- Z.mul_sub_distr_l, classify_scale by exact Hk. reflexivity.
Qed.

Lemma gaps_sorted_scale k l d ks : 0 < k ->
  gaps_sorted (scale_evs k l) (k * d) (scale_evs k ks) = map (scale_gap k) (gaps_sorted l d ks).
Proof.
  intro Hk. destruct ks as [|e r]; [reflexivity|]. cbn [scale_evs map gaps_sorted]. rewrite eend_scale. apply walk_scale, Hk.
Qed.

Lemma cat_sum_scale k c gs : cat_sum c (map (scale_gap k) gs) = k * cat_sum c gs.
Proof.
  unfold cat_sum. rewrite filter_map_swap, <- sumZ_scale, !map_map. reflexivity.
Qed.
