From HTA.lib Require Import Base ListExtra.
From HTA.model Require Import C18_Model.
Open Scope Z_scope.

(* induction principle for the nested type *)
Section FltInd.
  Variable P : flt -> Prop.
  Hypothesis HIter : forall its, P (FIter its).
  Hypothesis HIterIdx : forall ixs, P (FIterIdx ixs).
  Hypothesis HRank : forall rs, P (FRank rs).
  Hypothesis HTime : forall lo hi, P (FTime lo hi).
  Hypothesis HName : forall pat, P (FName pat).
  Hypothesis HGpu : P FGpu.
  Hypothesis HCpu : P FCpu.
  Hypothesis HMemcpy : forall nm, P (FMemcpy nm).
  Hypothesis HComp : forall fs, Forall P fs -> P (FComposite fs).
  Fixpoint flt_ind' (f : flt) : P f :=
    match f with
    | FIter its => HIter its | FIterIdx ixs => HIterIdx ixs | FRank rs => HRank rs
    | FTime lo hi => HTime lo hi | FName pat => HName pat | FGpu => HGpu | FCpu => HCpu
    | FMemcpy nm => HMemcpy nm
    | FComposite fs =>
        HComp fs ((fix go (fs : list flt) : Forall P fs :=
                     match fs with [] => Forall_nil P | g :: r => Forall_cons g (flt_ind' g) (go r) end) fs)
    end.
End FltInd.

Lemma apply_composite wt tab fs l :
  apply wt tab (FComposite fs) l = fold_left (fun acc f => apply wt tab f acc) fs l.
Proof. reflexivity. Qed.

Lemma apply_atomic wt tab f l :
  (forall fs, f <> FComposite fs) -> apply wt tab f l = filter (pred wt tab f l) l.
Proof. intro H. destruct f; try reflexivity. exfalso. apply (H fs). reflexivity. Qed.

(* row-local filters are plain selections by a predicate that does not depend on the frame *)
Fixpoint rpred wt tab (f : flt) (x : frow) {struct f} : bool :=
  match f with
  | FComposite fs => (fix all (fs : list flt) : bool := match fs with [] => true | g :: r => rpred wt tab g x && all r end) fs
  | _ => pred wt tab f [] x
  end.

Lemma rpred_composite wt tab fs x :
  rpred wt tab (FComposite fs) x = forallb (fun g => rpred wt tab g x) fs.
Proof. reflexivity. Qed.

Lemma rowlocal_composite fs : rowlocal (FComposite fs) = forallb rowlocal fs.
Proof. reflexivity. Qed.

Theorem rowlocal_is_filter wt tab f : rowlocal f = true -> forall l, apply wt tab f l = filter (rpred wt tab f) l.
Proof.
  induction f using flt_ind'; intros Hr l; try reflexivity; try discriminate.
  rewrite apply_composite, (filter_ext _ _ (rpred_composite wt tab fs)). rewrite rowlocal_composite in Hr.
  revert l. induction H as [|g r Hg _ IH]; intro l; cbn [fold_left forallb] in *.
  - symmetry. apply filter_true.
  - apply andb_prop in Hr. destruct Hr as [Hrg Hrr]. rewrite (Hg Hrg), (IH Hrr), filter_filter. reflexivity.
Qed.

Lemma insertZ_in x y l : In y (insertZ x l) <-> y = x \/ In y l.
Proof.
  induction l as [|z l IH]; simpl; [intuition|].
  destruct (x <? z) eqn:E1; [simpl; intuition|].
  destruct (x =? z) eqn:E2.
  - apply Z.eqb_eq in E2. subst. simpl. intuition.
  - simpl. rewrite IH. intuition.
Qed.

Theorem sorted_unique_in l y : In y (sorted_unique l) <-> In y l.
Proof.
  induction l as [|x l IH]; simpl; [tauto|]. rewrite insertZ_in, IH. intuition.
Qed.
