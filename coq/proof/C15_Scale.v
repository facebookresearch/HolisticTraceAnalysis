From HTA.lib Require Import ListExtra Base.
From HTA.model Require Import C15_Model.
From HTA.proof Require Import Scale.
Open Scope Z_scope.

Definition scale_row15 (k : Z) (r : list Z) : list Z :=
  match r with
  | [c; a; b; d] => [c; k * a; k * b; k * d]
  | _ => r
  end.

Lemma launch_corrs_scale k mem l : launch_corrs mem (scale_evs k l) = launch_corrs mem l.
Proof.
  unfold launch_corrs, scale_evs. rewrite filter_map_swap, map_map. reflexivity.
Qed.

Lemma cpu_sel_scale k mem l : cpu_sel mem (scale_evs k l) = scale_evs k (cpu_sel mem l).
Proof. unfold cpu_sel. rewrite launch_corrs_scale. apply filter_map_comm. reflexivity. Qed.

Lemma gpu_sel_scale k mem l : gpu_sel mem (scale_evs k l) = scale_evs k (gpu_sel mem l).
Proof. unfold gpu_sel. rewrite launch_corrs_scale. apply filter_map_comm. reflexivity. Qed.

Lemma pairs_scale k mem l :
  pairs mem (scale_evs k l) = map (fun p => (scale_ev k (fst p), scale_ev k (snd p))) (pairs mem l).
Proof.
  unfold pairs. rewrite cpu_sel_scale, gpu_sel_scale. unfold scale_evs. rewrite flat_map_map, map_flat_map.
  apply flat_map_ext. intro r. rewrite filter_map_swap, !map_map. reflexivity.
Qed.

Lemma row_scale k r g : 0 <= k -> row (scale_ev k r, scale_ev k g) = scale_row15 k (row (r, g)).
Proof.
  intro Hk. unfold row, scale_row15. cbn [scale_ev corr dur ts].
  rewrite <- !Z.mul_sub_distr_l, max0_scale by exact Hk. reflexivity.
Qed.
