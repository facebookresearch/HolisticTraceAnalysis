(* C08 / C10, host side: the graph builder's edges scale with the times *)
From HTA.lib Require Import ListExtra Base.
From HTA.model Require Import C08_Host.
Open Scope list_scope.
Open Scope Z_scope.

Definition shev (k : Z) (e : hev) : hev := mkH (h_id e) (k * h_ts e) (k * h_end e) (h_an e) (h_block e) (h_parent e).

Definition shnode (k : Z) (n : hnode) : hnode := mkHN (n_ev n) (n_start n) (k * n_ts n).

Definition shedge (k : Z) (e : hedge) : hedge := mkHE (shnode k (he_src e)) (shnode k (he_dst e)) (k * he_w e) (he_ty e) (he_attr e).

Definition shst (k : Z) (s : hst) : hst := mkSt (option_map (shnode k) (s_last s)) (s_lastp s) (s_depth s) (option_map (shnode k) (s_high s)).

(* the builders (host and device side) make edges of two kinds of weight only: a difference of two times, or 0 *)
Lemma shedge_span k a b t1 t2 ty att :
  shedge k (mkHE a b (t1 - t2) ty att) = mkHE (shnode k a) (shnode k b) (k * t1 - k * t2) ty att.
Proof. unfold shedge. cbn [he_src he_dst he_w he_ty he_attr]. rewrite Z.mul_sub_distr_l. reflexivity. Qed.

Lemma shedge_zero k a b ty att : shedge k (mkHE a b 0 ty att) = mkHE (shnode k a) (shnode k b) 0 ty att.
Proof. unfold shedge. cbn [he_src he_dst he_w he_ty he_attr]. rewrite Z.mul_0_r. reflexivity. Qed.

Lemma hlookup_scale k tab i : hlookup (map (shev k) tab) i = option_map (shev k) (hlookup tab i).
Proof. apply find_map. reflexivity. Qed.

Lemma attr_rule_scale k a b p : attr_rule (shnode k a) (shnode k b) p = attr_rule a b p.
Proof. reflexivity. Qed.

(* no test of the step looks at a time, so both runs take the same branch; there the new state and the nodes and attributions
   of the edges agree by computation, the weights by the two equations above *)
Lemma hstep_scale k tab s a :
  hstep (map (shev k) tab) (shst k s) a = (shst k (fst (hstep tab s a)), map (shedge k) (snd (hstep tab s a))).
Proof.
  destruct s as [last lastp depth high], a as [i|i]; unfold hstep; rewrite hlookup_scale;
    destruct (hlookup tab i) as [e|]; [|reflexivity| |reflexivity];
    cbn [option_map shev h_an h_block shst s_last s_lastp s_depth s_high]; destruct (h_an e).
  - (* Enter, with nodes *)
    destruct high as [h|], last as [n|], (depth =? 0); cbn [fst snd map app]; rewrite ?shedge_span, ?shedge_zero; reflexivity.
  - reflexivity.
  - (* Exit, with nodes *)
    destruct last as [n|], (depth - 1 =? 0), (h_block e); cbn [fst snd map app]; rewrite ?shedge_span, ?shedge_zero; reflexivity.
  - (* Exit, without nodes *)
    destruct (lastp =? i); reflexivity.
Qed.

Lemma hrun_scale k tab s acts : hrun (map (shev k) tab) (shst k s) acts = map (shedge k) (hrun tab s acts).
Proof.
  revert s. induction acts as [|a r IH]; intro s; cbn [hrun map]; [reflexivity|].
  rewrite hstep_scale. destruct (hstep tab s a) as [s' es]. cbn [fst snd]. rewrite map_app, IH. reflexivity.
Qed.
