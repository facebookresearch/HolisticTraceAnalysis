From HTA.lib Require Import Base.
From HTA.model Require Import C08_Model.
Open Scope list_scope.
Open Scope Z_scope.

(* what edge_ok demands of an edge of each type, between the nodes nu, nv of the events eu, ev_ *)
Definition edge_rule (zw : bool) (clipped : list ev) (nu nv : cpnode) (eu ev_ : ev) (e : cpedge) : Prop :=
  g_ty e = 0 /\ (g_w e = c_ts nv - c_ts nu \/ g_w e = 0 /\ c_start nv = false /\ c_block nv = true)
  \/ g_ty e = 1 /\ g_w e = 0
  \/ g_ty e = 2 /\ c_start nu = true /\ c_start nv = true /\ is_dev_ev eu = false /\ is_dev_ev ev_ = true /\
     icorr ev_ = idx eu /\ 0 < icorr ev_ /\ (g_w e = c_ts nv - c_ts nu \/ zw = true /\ g_w e = 0)
  \/ g_ty e = 3 /\ c_start nu = false /\ c_start nv = true /\ is_dev_ev eu = true /\ is_dev_ev ev_ = true /\
     stream eu = stream ev_ /\ idx eu <> idx ev_ /\ g_w e = c_ts nv - c_ts nu /\
     (forall k, In k clipped -> analysed k = true -> is_dev_ev k = true -> stream k = stream eu -> cat k <> "cuda_sync"%string ->
                ~ (ts eu < ts k < ts ev_))
  \/ g_ty e = 4 /\ g_w e = 0 /\ c_start nu = false /\ is_dev_ev eu = true /\
     (c_start nv = false /\ is_dev_ev ev_ = false \/ c_start nv = true /\ is_dev_ev ev_ = true /\ stream eu <> stream ev_).

(* the checker read backwards, once: every clause of an accepted edge as a proposition *)
Lemma edge_ok_inv zw clipped N E e : edge_ok zw clipped N E e = true ->
  exists nu nv eu ev_, find_node N (g_u e) = Some nu /\ find_node N (g_v e) = Some nv /\
    find_ev clipped (c_ev nu) = Some eu /\ find_ev clipped (c_ev nv) = Some ev_ /\
    c_ts nu <= c_ts nv /\ 0 <= g_w e /\ edge_rule zw clipped nu nv eu ev_ e.
Proof.
  unfold edge_ok. destruct (find_node N (g_u e)) as [nu|]; [|discriminate]. destruct (find_node N (g_v e)) as [nv|]; [|discriminate].
  intro H. apply andb_prop in H. destruct H as [Hts H]. apply andb_prop in Hts. destruct Hts as [Hfw Hnn]. apply Z.leb_le in Hfw, Hnn.
  destruct (find_ev clipped (c_ev nu)) as [eu|] eqn:Eu; [|discriminate]. destruct (find_ev clipped (c_ev nv)) as [ev_|] eqn:Ev; [|discriminate].
  exists nu, nv, eu, ev_. do 2 (split; [reflexivity|]). split; [exact Eu|]. split; [exact Ev|]. split; [exact Hfw|]. split; [exact Hnn|].
  unfold edge_rule.
  destruct (g_ty e =? 0) eqn:T0; [apply Z.eqb_eq in T0 | clear T0].
  { left. autorewrite with bool_prop in H. tauto. }
  destruct (g_ty e =? 1) eqn:T1; [apply Z.eqb_eq in T1 | clear T1].
  { right; left. autorewrite with bool_prop in H. tauto. }
  destruct (g_ty e =? 2) eqn:T2; [apply Z.eqb_eq in T2 | clear T2].
  { right; right; left. autorewrite with bool_prop in H. tauto. }
  destruct (g_ty e =? 3) eqn:T3; [apply Z.eqb_eq in T3 | clear T3].
  { right; right; right; left. rewrite andb_true_iff in H. destruct H as [H Hnone]. autorewrite with bool_prop in H.
    do 8 (split; [tauto|]). intros k Hk Ha Hd Hs Hc [Hlo Hhi].
    apply negb_true_iff, not_true_iff_false in Hnone. apply Hnone, existsb_exists. exists k. split; [exact Hk|].
    apply Z.eqb_eq in Hs. apply String.eqb_neq in Hc. apply Z.ltb_lt in Hlo, Hhi. rewrite Ha, Hd, Hs, Hc, Hlo, Hhi. reflexivity. }
  destruct (g_ty e =? 4) eqn:T4; [apply Z.eqb_eq in T4 | discriminate].
  right; right; right; right. autorewrite with bool_prop in H. tauto.
Qed.

Lemma find_node_in N v n : find_node N v = Some n -> In (c_ts n) (map c_ts N).
Proof. intro H. apply find_some in H. apply in_map, H. Qed.
