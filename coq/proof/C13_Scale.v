(* C13: the enhanced call graph's parent relation (host trees, backward attachment, device children) is the same at every
   resolution; depth and height are functions of that relation alone.  The kernel totals scale with the times except for the
   sentinel -1 of the latest end (kinfo_rel); the sentinel of the earliest start, 2 * max ts, scales with the times. *)
From HTA.lib Require Import ListExtra Base.
From HTA.model Require Import C13_Model.
From HTA.proof Require Import Scale C03_Scale.
Open Scope Z_scope.

Lemma thread_of_scale k l e : thread_of (scale_evs k l) (scale_ev k e) = scale_evs k (thread_of l e).
Proof. apply filter_map_comm. reflexivity. Qed.

Lemma is_cpu_thread_scale k l e : is_cpu_thread (scale_evs k l) (scale_ev k e) = is_cpu_thread l e.
Proof. unfold is_cpu_thread. rewrite thread_of_scale. unfold scale_evs. rewrite forallb_map. reflexivity. Qed.

Lemma thread_heads_scale k seen l :
  thread_heads (scale_evs k seen) (scale_evs k l) = scale_evs k (thread_heads seen l).
Proof.
  unfold scale_evs. revert seen. induction l as [|e r IH]; intro seen; cbn [map thread_heads]; [reflexivity|].
  rewrite existsb_map, (existsb_ext _ (same_thread e)) by reflexivity.
  destruct (existsb (same_thread e) seen); [apply IH|]. cbn [map]. f_equal. apply (IH (e :: seen)).
Qed.

Lemma cpu_thread_heads_scale k l : cpu_thread_heads (scale_evs k l) = scale_evs k (cpu_thread_heads l).
Proof.
  unfold cpu_thread_heads. rewrite (thread_heads_scale k []). apply filter_map_comm. intro e. apply is_cpu_thread_scale.
Qed.

Lemma host_part_scale k l e : host_part (scale_evs k l) (scale_ev k e) = scale_evs k (host_part l e).
Proof. unfold host_part. rewrite thread_of_scale. apply filter_map_comm. reflexivity. Qed.

Lemma host_edges_scale k l : 0 < k -> host_edges (scale_evs k l) = host_edges l.
Proof.
  intro Hk. unfold host_edges. rewrite cpu_thread_heads_scale.
  change (scale_evs k (cpu_thread_heads l)) with (map (scale_ev k) (cpu_thread_heads l)). rewrite flat_map_map.
  apply flat_map_ext. intro h. rewrite host_part_scale. apply parents_new_scale, Hk.
Qed.

Lemma in_cpu_thread_scale k l i : in_cpu_thread (scale_evs k l) i = in_cpu_thread l i.
Proof.
  unfold in_cpu_thread. etransitivity; [apply (existsb_map (scale_ev k))|]. apply existsb_ext. intro e.
  rewrite is_cpu_thread_scale. reflexivity.
Qed.

Lemma dev_edges_scale k l : dev_edges (scale_evs k l) = dev_edges l.
Proof.
  unfold dev_edges, scale_evs.
  rewrite (filter_map_comm (scale_ev k) _ (fun e => (0 <? stream e) && (0 <? icorr e) && in_cpu_thread l (icorr e)))
    by (intro e; apply f_equal, in_cpu_thread_scale).
  rewrite map_map. reflexivity.
Qed.

Lemma is_main_scale k l h : is_main (scale_evs k l) (scale_ev k h) = is_main l h.
Proof. unfold is_main, has_name_prefix. rewrite thread_of_scale. unfold scale_evs. rewrite existsb_map. reflexivity. Qed.

Lemma is_bwd_scale k l h : is_bwd (scale_evs k l) (scale_ev k h) = is_bwd l h.
Proof.
  unfold is_bwd, has_name_infix. rewrite is_main_scale, thread_of_scale. unfold scale_evs. rewrite existsb_map. reflexivity.
Qed.

Lemma bwd_parents_scale k th : bwd_parents (scale_evs k th) = scale_evs k (bwd_parents th).
Proof.
  unfold bwd_parents, scale_evs.
  (* the selection is written out so that the destruct below finds it as it stands; with `name (scale_ev k e)` left in it by
     filter_map_swap the destruct takes 0.2 s *)
  rewrite (filter_map_comm (scale_ev k) _ (fun e => starts_with "## backward ##" (name e))) by reflexivity.
  destruct (filter (fun e => starts_with "## backward ##" (name e)) th) as [|p ps]; [|reflexivity].
  apply filter_map_comm. reflexivity.
Qed.

Lemma reparent_scale k l ids es p : 0 < k ->
  reparent (scale_evs k l) ids es (scale_ev k p) = reparent l ids es p.
Proof.
  intro Hk. unfold reparent, scale_evs. apply map_ext. intro cp.
  rewrite (find_map (scale_ev k)) by reflexivity.
  destruct (find (fun e => idx e =? fst cp) l) as [e|]; cbn [option_map]; [|reflexivity].
  rewrite !eend_scale. cbn [scale_ev ts idx]. rewrite !leb_scale by exact Hk. reflexivity.
Qed.

Lemma fold_reparent_scale k l ids ps es : 0 < k ->
  fold_left (reparent (scale_evs k l) ids) (scale_evs k ps) es = fold_left (reparent l ids) ps es.
Proof.
  intro Hk. revert es. induction ps as [|p r IH]; intro es; cbn [scale_evs map fold_left]; [reflexivity|].
  rewrite reparent_scale by exact Hk. apply IH.
Qed.

Lemma attach_bwd_scale k l edges : 0 < k -> attach_bwd (scale_evs k l) edges = attach_bwd l edges.
Proof.
  intro Hk. unfold attach_bwd. rewrite cpu_thread_heads_scale.
  change (scale_evs k (cpu_thread_heads l)) with (map (scale_ev k) (cpu_thread_heads l)).
  rewrite (filter_map_comm (scale_ev k) _ (is_main l)) by (intro e; apply is_main_scale).
  rewrite (filter_map_comm (scale_ev k) _ (is_bwd l)) by (intro e; apply is_bwd_scale).
  destruct (filter (is_main l) (cpu_thread_heads l)) as [|m [|m' ms]]; cbn [map]; try reflexivity.
  destruct (filter (is_bwd l) (cpu_thread_heads l)) as [|b [|b' bs]]; cbn [map]; try reflexivity.
  rewrite !thread_of_scale, bwd_parents_scale, fold_reparent_scale by exact Hk.
  unfold scale_evs. rewrite map_map. reflexivity.
Qed.

Theorem C13_parent_map_scale k l : 0 < k -> parent_map (scale_evs k l) = parent_map l.
Proof.
  intro Hk. unfold parent_map. rewrite host_edges_scale, dev_edges_scale, attach_bwd_scale by exact Hk. reflexivity.
Qed.

(* kernel totals: count unchanged, summed duration and earliest start multiplied by k, latest end multiplied by k or
   still the sentinel -1 *)
Definition kinfo_rel (k : Z) (a a' : kinfo) : Prop :=
  let '(c, s, f, e) := a in let '(c', s', f', e') := a' in
  c' = c /\ s' = k * s /\ f' = k * f /\ (e' = k * e \/ (e = -1 /\ e' = -1)).

Lemma kinfo_rel_count_sum k a a' : kinfo_rel k a a' ->
  fst (fst (fst a')) = fst (fst (fst a)) /\ snd (fst (fst a')) = k * snd (fst (fst a)).
Proof. destruct a as [[[c s] f] e], a' as [[[c' s'] f'] e']. intros [Hc [Hs _]]. split; assumption. Qed.

Lemma k_none_rel k tmax : kinfo_rel k (k_none tmax) (k_none (k * tmax)).
Proof. unfold kinfo_rel, k_none. repeat split; try ring. right. split; reflexivity. Qed.

(* a scaled end beside the sentinel wins on both sides if it is >= 0, and loses on both sides if it is < 0 *)
Lemma max_sentinel k e : 0 < k ->
  Z.max (k * e) (-1) = k * Z.max e (-1) \/ (Z.max e (-1) = -1 /\ Z.max (k * e) (-1) = -1).
Proof.
  intro Hk. destruct (Z_le_gt_dec 0 e) as [H|H].
  - left. rewrite !Z.max_l by nia. reflexivity.
  - right. split; apply Z.max_r; nia.
Qed.

Lemma k_join_rel k a a' b b' : 0 < k -> kinfo_rel k a a' -> kinfo_rel k b b' -> kinfo_rel k (k_join a b) (k_join a' b').
Proof.
  intro Hk. destruct a as [[[c1 s1] f1] e1], a' as [[[c1' s1'] f1'] e1'], b as [[[c2 s2] f2] e2], b' as [[[c2' s2'] f2'] e2'].
  unfold kinfo_rel, k_join. intros [Hc1 [Hs1 [Hf1 He1]]] [Hc2 [Hs2 [Hf2 He2]]]. subst c1' s1' f1' c2' s2' f2'.
  split; [reflexivity|]. split; [ring|]. split; [apply Z.mul_min_distr_nonneg_l; lia|].
  destruct He1 as [He1|[He1 He1']]; destruct He2 as [He2|[He2 He2']]; subst.
  - left. apply Z.mul_max_distr_nonneg_l. lia.
  - apply max_sentinel, Hk.
  - rewrite !(Z.max_comm (-1)). apply max_sentinel, Hk.
  - right. split; reflexivity.
Qed.

Lemma fold_join_rel k (g g' : Z -> kinfo) cs a a' : 0 < k ->
  kinfo_rel k a a' -> (forall c, kinfo_rel k (g c) (g' c)) ->
  kinfo_rel k (fold_left (fun acc c => k_join acc (g c)) cs a) (fold_left (fun acc c => k_join acc (g' c)) cs a').
Proof.
  intros Hk Ha Hg. revert a a' Ha. induction cs as [|c r IH]; intros a a' Ha; cbn [fold_left]; [exact Ha|].
  apply IH. apply k_join_rel; [exact Hk | exact Ha | apply Hg].
Qed.

Lemma kinfo_of_scale k fuel l devs m tmax i : 0 < k ->
  kinfo_rel k (kinfo_of fuel l devs m tmax i) (kinfo_of fuel (scale_evs k l) devs m (k * tmax) i).
Proof.
  intro Hk. revert i. induction fuel as [|f IH]; intro i; cbn [kinfo_of]; [apply k_none_rel|].
  destruct (is_dev_node devs i).
  - unfold scale_evs. rewrite (find_map (scale_ev k)) by reflexivity.
    destruct (find (fun e => idx e =? i) l) as [e|]; cbn [option_map]; [|apply k_none_rel].
    unfold kinfo_rel. rewrite eend_scale. repeat split. left. reflexivity.
  - apply fold_join_rel; [exact Hk | apply k_none_rel | exact IH].
Qed.
