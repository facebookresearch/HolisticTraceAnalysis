(* C08, device side: the kernel loop's edges scale with the times (queue lengths and stream ids are not times) *)
From HTA.lib Require Import Base.
From HTA.model Require Import C08_Host C08_Dev.
From HTA.proof Require Import Scale C08_HostScale.
Open Scope list_scope.
Open Scope Z_scope.

Definition sdrow (k : Z) (r : drow) : drow :=
  match r with
  | DK eid s t0 t1 rt rt_ts rt_has q_rt q_k => DK eid s (k * t0) (k * t1) rt (k * rt_ts) rt_has q_rt q_k
  | DS s rt rt_end rt_has => DS s rt (k * rt_end) rt_has
  | DC rt rt_end rt_has => DC rt (k * rt_end) rt_has
  | DE => DE
  end.
Definition sdst (k : Z) (st : list (Z * hnode)) : list (Z * hnode) := map (fun sn => (fst sn, shnode k (snd sn))) st.

Lemma last_of_scale k s st : last_of s (sdst k st) = option_map (shnode k) (last_of s st).
Proof.
  induction st as [|[a n] r IH]; cbn [sdst map last_of fst snd]; [reflexivity|].
  destruct (a =? s); [reflexivity | exact IH].
Qed.

Lemma set_last_scale k s n st : set_last s (shnode k n) (sdst k st) = sdst k (set_last s n st).
Proof.
  induction st as [|[a m] r IH]; cbn [sdst map set_last fst snd]; [reflexivity|].
  destruct (a =? s); cbn [map fst snd]; [reflexivity|]. f_equal. exact IH.
Qed.

Lemma dstep_scale k zw st r : 0 < k ->
  dstep zw (sdst k st) (sdrow k r) =
  (sdst k (fst (fst (dstep zw st r))), map (shedge k) (snd (fst (dstep zw st r))), snd (dstep zw st r)).
Proof.
  intro Hk. destruct r as [eid s t0 t1 rt rt_ts rt_has q_rt q_k | s rt rt_end rt_has | rt rt_end rt_has | ]; cbn [sdrow dstep].
  - (* an activity: the one test on times compares the stream's last node with the start of the launch call *)
    change (mkHN eid false (k * t1)) with (shnode k (mkHN eid false t1)). rewrite last_of_scale, set_last_scale.
    destruct (last_of s st) as [n|]; cbn [option_map shnode n_ts]; rewrite ?ltb_scale by exact Hk;
      destruct ((q_rt =? 1) && (q_k =? 0) && _); cbn [negb]; destruct (zw && _ && rt_has);
      cbn [fst snd map app]; rewrite ?shedge_span, ?shedge_zero; reflexivity.
  - rewrite last_of_scale. destruct (last_of s st) as [n|], rt_has; cbn [option_map fst snd map]; rewrite ?shedge_zero; reflexivity.
  - destruct rt_has; cbn [fst snd map]; [|reflexivity].
    unfold sdst. rewrite !map_map. do 2 f_equal. apply map_ext. intro sn. cbn [snd]. rewrite shedge_zero. reflexivity.
  - reflexivity.
Qed.

Lemma drun_scale k zw st rows : 0 < k ->
  drun zw (sdst k st) (map (sdrow k) rows) = (map (shedge k) (fst (drun zw st rows)), snd (drun zw st rows)).
Proof.
  intro Hk. revert st. induction rows as [|r rest IH]; intro st; cbn [map drun]; [reflexivity|].
  rewrite dstep_scale by exact Hk. destruct (dstep zw st r) as [[st' es] ok]. cbn [fst snd].
  rewrite IH. destruct (drun zw st' rest) as [es' ok']. cbn [fst snd]. rewrite map_app. reflexivity.
Qed.
