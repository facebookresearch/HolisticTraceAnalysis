From HTA.lib Require Import Base ListExtra.
From HTA.model Require Import C17_Model.
Open Scope Z_scope.

Lemma cnt_pos short k l : 0 < cnt short k l <-> exists e, In e l /\ key short e = k.
Proof. unfold cnt. rewrite count_pos. setoid_rewrite String.eqb_eq. reflexivity. Qed.

Lemma dedup_ok : is_dedup String.eqb dedup.
Proof. split; reflexivity. Qed.

Lemma keys_NoDup short c t : NoDup (keys short c t).
Proof. apply (dedup_NoDup String.eqb_eq dedup_ok). Qed.

Lemma in_keys short c t k : In k (keys short c t) <-> exists e, In e (c ++ t) /\ key short e = k.
Proof.
  unfold keys. rewrite (dedup_In String.eqb_eq dedup_ok), in_map_iff.
  split; intros [e H]; exists e; tauto.
Qed.

Lemma diff_rows_keys short c t : map d_key (diff_rows short c t) = keys short c t.
Proof. unfold diff_rows. rewrite map_map. apply map_id. Qed.

Lemma in_diff_rows short c t r : In r (diff_rows short c t) ->
  In (d_key r) (keys short c t) /\ d_cc r = cnt short (d_key r) c /\ d_tc r = cnt short (d_key r) t /\
  d_cd r = tot short (d_key r) c /\ d_td r = tot short (d_key r) t.
Proof. intro Hr. apply in_map_iff in Hr. destruct Hr as [k [<- Hk]]. cbn [d_key d_cc d_tc d_cd d_td]. auto. Qed.

(* a name compared with itself, or occurring equally often on both sides, is 'unchanged' *)
Lemma masks_same n : 0 < n -> masks n n = [false; false; false; false; true].
Proof.
  intro Hn. unfold masks. rewrite Z.sub_diag.
  replace (n =? 0) with false by lia. replace (0 <? n) with true by lia. reflexivity.
Qed.
