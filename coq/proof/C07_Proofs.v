From Coq Require Import Permutation.
From HTA.lib Require Import ListExtra Base Cells Intervals Sweep.
From HTA.model Require Import C07_Model.

Lemma insert_time_ok : is_insert (fun x y : row => fst x <? fst y) insert_time.
Proof. split; reflexivity. Qed.

Lemma sort_time_perm l : Permutation l (sort_time l).
Proof. apply (isort_perm insert_time_ok). Qed.

Lemma sort_time_sorted l : sorted_time (sort_time l).
Proof. apply (isort_key_sorted fst insert_time_ok). Qed.

(* the interval-level statement: A, B arbitrary well-formed interval sets *)
Theorem overlap_exact_itvs (A B A' B' : list itv) (R' : list row) lo hi :
  wf_itvs A -> wf_itvs B ->
  Permutation A A' -> sorted_ts A' -> Permutation B B' -> sorted_ts B' ->
  Permutation (status_rows (merge_sorted A') (merge_sorted B')) R' -> sorted_time R' ->
  (forall i, In i (A ++ B) -> lo <= fst i /\ snd i <= hi) ->
  let (num, den) := overlap A' R' in
  num = cells (fun t => covered A t && covered B t) lo hi /\
  den = cells (covered A) lo hi /\ 0 <= num <= den.
Proof.
  intros HwA HwB HpA HsA HpB HsB HpR HsR Hb. unfold overlap.
  assert (HbA : forall i, In i A -> lo <= fst i /\ snd i <= hi) by (intros i Hi; apply Hb, in_or_app; left; exact Hi).
  assert (HbB : forall i, In i B -> lo <= fst i /\ snd i <= hi) by (intros i Hi; apply Hb, in_or_app; right; exact Hi).
  (* the status rows draw 1 where a communication kernel runs plus 2 where a computation kernel runs: 3 where both do *)
  assert (Hd : draws (status_rows (merge_sorted A') (merge_sorted B'))
                 (fun t => 1 * b2z (covered A t) + 2 * b2z (covered B t)) lo hi).
  { apply draws_app; apply draws_merged; assumption. }
  rewrite (sweep_draws (Z.eqb 3) _ R' _ lo hi Hd eq_refl HpR HsR), (total_merge_any A A' lo hi) by assumption.
  rewrite (cells_ext _ (fun t => covered A t && covered B t)).
  2:{ intros t _. destruct (covered A t), (covered B t); reflexivity. }
  split; [reflexivity|]. split; [reflexivity|]. split.
  - apply cells_bounds.
  - apply cells_mono. intros t _ H. apply andb_prop in H. tauto.
Qed.
