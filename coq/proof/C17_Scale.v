(* C17: resolution independence of the trace diff: the same names, the same counts, total durations multiplied by k *)
From HTA.lib Require Import ListExtra Base.
From HTA.model Require Import C17_Model.
From HTA.proof Require Import Scale.
Open Scope Z_scope.

Definition sdr (k : Z) (r : drow) : drow := mkDrow (d_key r) (d_cc r) (d_tc r) (k * d_cd r) (k * d_td r).

Lemma sel_scale k frames its dev : sel (map (scale_evs k) frames) its dev = scale_evs k (sel frames its dev).
Proof. unfold sel, scale_evs. rewrite <- concat_map. apply filter_map_comm. reflexivity. Qed.

Lemma named_scale k short key0 l :
  filter (fun e => String.eqb (key short e) key0) (scale_evs k l) = scale_evs k (filter (fun e => String.eqb (key short e) key0) l).
Proof. apply filter_map_comm. reflexivity. Qed.

Lemma cnt_scale k short key0 l : cnt short key0 (scale_evs k l) = cnt short key0 l.
Proof. unfold cnt, count. rewrite named_scale. unfold scale_evs. rewrite map_length. reflexivity. Qed.

Lemma tot_scale k short key0 l : tot short key0 (scale_evs k l) = k * tot short key0 l.
Proof. unfold tot. rewrite named_scale. unfold scale_evs. rewrite <- sumZ_scale, !map_map. reflexivity. Qed.

Lemma keys_scale k short c t : keys short (scale_evs k c) (scale_evs k t) = keys short c t.
Proof. unfold keys, scale_evs. rewrite <- map_app, map_map. reflexivity. Qed.

Lemma diff_rows_scale k short c t : diff_rows short (scale_evs k c) (scale_evs k t) = map (sdr k) (diff_rows short c t).
Proof.
  unfold diff_rows. rewrite keys_scale, map_map. apply map_ext. intro key0.
  rewrite !cnt_scale, !tot_scale. reflexivity.
Qed.
