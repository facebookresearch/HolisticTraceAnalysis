(* Host side of the critical-path graph: for EVERY depth-first traversal of properly nested events in time order (any nesting depth,
   any mix of events with and without graph nodes) every edge the builder's state machine emits points forward in time, weighs the
   time difference (or zero for a blocking call's closing edge / a dependency) and is attributed to an existing event whose span
   covers the edge. *)
From HTA.lib Require Import Base.
From HTA.model Require Import C08_Host.
Open Scope list_scope.
Open Scope Z_scope.

Definition an_of (tab : list hev) (i : Z) : bool := match hlookup tab i with Some e => h_an e | None => false end.
Definition par_of (tab : list hev) (i : Z) : Z := match hlookup tab i with Some e => h_parent e | None => -1 end.
Definition block_of (tab : list hev) (i : Z) : bool := match hlookup tab i with Some e => h_block e | None => false end.

Lemma lookup_fields tab i e : hlookup tab i = Some e -> ts_of tab i = h_ts e /\ end_of tab i = h_end e /\ an_of tab i = h_an e /\
  par_of tab i = h_parent e /\ block_of tab i = h_block e.
Proof. intro H. unfold ts_of, end_of, an_of, par_of, block_of. rewrite H. repeat split; reflexivity. Qed.

(* what the property demands of an emitted edge: the two readings used by the property files *)
Definition forward_nonneg (tab : list hev) (e : hedge) : Prop :=
  n_ts (he_src e) <= n_ts (he_dst e) /\ 0 <= he_w e /\
  (he_ty e = 1 /\ he_w e = 0 \/
   he_ty e = 0 /\ (he_w e = n_ts (he_dst e) - n_ts (he_src e) \/
                   he_w e = 0 /\ n_start (he_dst e) = false /\ block_of tab (n_ev (he_dst e)) = true)).
Definition attribution_covers (tab : list hev) (e : hedge) : Prop :=
  (he_ty e = 1 -> he_attr e = -2) /\
  (he_ty e = 0 -> exists a, hlookup tab (he_attr e) = Some a /\ h_ts a <= n_ts (he_src e) /\ n_ts (he_dst e) <= h_end a).

Definition Good (tab : list hev) (e : hedge) : Prop := forward_nonneg tab e /\ attribution_covers tab e.

Lemma good_dep tab h n : n_ts h <= n_ts n -> Good tab (mkHE h n 0 1 (-2)).
Proof.
  intro H. split.
  - split; [exact H|]. split; [apply Z.le_refl|]. left. split; reflexivity.
  - split; [reflexivity | discriminate].
Qed.

Lemma good_span tab src dst w a ev :
  hlookup tab a = Some ev -> h_ts ev <= n_ts src -> n_ts src <= n_ts dst -> n_ts dst <= h_end ev ->
  w = n_ts dst - n_ts src \/ w = 0 /\ n_start dst = false /\ block_of tab (n_ev dst) = true ->
  Good tab (mkHE src dst w 0 a).
Proof.
  intros Ha Hlo Hfw Hhi Hw. assert (Hnn : 0 <= w) by (destruct Hw as [Hw|[Hw _]]; lia). split.
  - split; [exact Hfw|]. split; [exact Hnn|]. right. split; [reflexivity | exact Hw].
  - split; [discriminate|]. intros _. exists ev. auto.
Qed.

(* the open events, innermost first: each exists, is well-formed, and is nested in the next one, which is its call-stack parent *)
Fixpoint chain (tab : list hev) (stack : list Z) : Prop :=
  match stack with
  | [] => True
  | i :: rest =>
      (exists e, hlookup tab i = Some e) /\ ts_of tab i <= end_of tab i /\
      match rest with
      | p :: _ => par_of tab i = p /\ ts_of tab p <= ts_of tab i /\ end_of tab i <= end_of tab p
      | [] => True
      end /\ chain tab rest
  end.

Lemma chain_in tab : forall stack top, chain tab (top :: stack) -> forall i, In i (top :: stack) ->
  (exists e, hlookup tab i = Some e) /\ end_of tab top <= end_of tab i.
Proof.
  induction stack as [|p rest IH]; intros top (He & _ & Hp & Hc) i [<-|Hi]; try (split; [exact He | apply Z.le_refl]).
  - destruct Hi.
  - destruct (IH p Hc i Hi) as [Hei Hle]. split; [exact Hei | lia].
Qed.

(* what wf_actions maintains about its own ghost state, whatever the builder does *)
Record Open (tab : list hev) (stack seen : list Z) (cursor : Z) : Prop := mkOpen {
  open_chain : chain tab stack;
  open_nodup : NoDup stack;
  open_seen : incl stack seen;
  open_top : match stack with top :: _ => ts_of tab top <= cursor <= end_of tab top | [] => True end }.

Lemma wf_enter tab stack seen cursor i r :
  Open tab stack seen cursor -> wf_actions tab stack seen cursor (Enter i :: r) = true ->
  exists e, hlookup tab i = Some e /\ cursor <= h_ts e /\
    Open tab (i :: stack) (i :: seen) (h_ts e) /\ wf_actions tab (i :: stack) (i :: seen) (h_ts e) r = true.
Proof.
  intros [Hc Hnd Hseen Htop]. cbn [wf_actions]. destruct (hlookup tab i) as [e|] eqn:Hl; [|discriminate].
  rewrite !andb_true_iff, negb_true_iff, !Z.leb_le. intros [[[[Hns Hcur] Hte] Hpar] Hr].
  destruct (lookup_fields tab i e Hl) as (Hts & Hen & _ & Hpa & _).
  exists e. split; [reflexivity|]. split; [exact Hcur|]. split; [|exact Hr]. constructor.
  - cbn [chain]. rewrite Hts, Hen, Hpa. split; [exists e; exact Hl|]. split; [exact Hte|]. split; [|exact Hc].
    (* wf_actions never compares a child's start with its parent's: ts p <= ts i comes from open_top (ts p <= cursor)
       and cursor <= ts i *)
    destruct stack as [|p st]; [exact I|]. rewrite andb_true_iff, Z.eqb_eq, Z.leb_le in Hpar. lia.
  - constructor; [|exact Hnd]. intro Hin. apply Hseen, memZ_In in Hin. unfold memz in Hns. congruence.
  - apply incl_cons; [left; reflexivity | apply incl_tl, Hseen].
  - lia.
Qed.

Lemma wf_exit tab stack seen cursor i r :
  Open tab stack seen cursor -> wf_actions tab stack seen cursor (Exit i :: r) = true ->
  exists e rest, stack = i :: rest /\ hlookup tab i = Some e /\ cursor <= h_end e /\
    Open tab rest seen (h_end e) /\ wf_actions tab rest seen (h_end e) r = true.
Proof.
  intros HO. cbn [wf_actions]. destruct stack as [|p rest]; [discriminate|]. destruct (hlookup tab i) as [e|] eqn:Hl; [|discriminate].
  rewrite !andb_true_iff, Z.eqb_eq, Z.leb_le. intros [[Hp Hcur] Hr]. subst p. exists e, rest. do 3 (split; [auto|]). split; [|exact Hr].
  destruct HO as [(_ & Hte & Hp & Hc) Hnd Hseen Htop]. destruct (lookup_fields tab i e Hl) as (_ & Hen & _). constructor.
  - exact Hc.
  - exact (proj2 (proj1 (NoDup_cons_iff i rest) Hnd)).
  - intros j Hj. apply Hseen. right. exact Hj.
  - destruct rest as [|p st]; [exact I | lia].
Qed.

(* op_depth counts the open events that have nodes: count (an_of tab) stack *)
Lemma count_an_yes tab i stack : an_of tab i = true -> count (an_of tab) (i :: stack) = count (an_of tab) stack + 1.
Proof. intro H. rewrite count_cons, H. apply Z.add_comm. Qed.

Lemma count_an_no tab i stack : an_of tab i = false -> count (an_of tab) (i :: stack) = count (an_of tab) stack.
Proof. intro H. rewrite count_cons, H. reflexivity. Qed.

(* the event a span edge leaving the node n will be attributed to, unless it ends at an end node *)
Definition anchor (s : hst) (n : hnode) : Z := if n_start n then n_ev n else s_lastp s.

Lemma anchor_in (stack : list Z) s n above rest : stack = above ++ anchor s n :: rest -> In (anchor s n) stack.
Proof. intro H. rewrite H. apply in_elt. Qed.

Lemma attr_to_start s n i t : attr_rule n (mkHN i true t) (s_lastp s) = anchor s n.
Proof. reflexivity. Qed.

Lemma attr_to_end s n i t : anchor s n = i -> attr_rule n (mkHN i false t) (s_lastp s) = i.
Proof. unfold attr_rule, anchor. cbn [n_start n_ev negb]. destruct (n_start n); auto. Qed.

(* leaving an event without nodes moves at most the pending parent, and that only if it is the event left *)
Lemma reparent s i p :
  let s' := if s_lastp s =? i then mkSt (s_last s) p (s_depth s) (s_high s) else s in
  s_last s' = s_last s /\ s_depth s' = s_depth s /\ s_high s' = s_high s /\
  forall n, (anchor s n <> i -> anchor s' n = anchor s n) /\ (anchor s n = i -> n_start n = false -> anchor s' n = p).
Proof.
  cbv zeta. unfold anchor. destruct (Z.eqb_spec (s_lastp s) i) as [E|E]; cbn [s_last s_lastp s_depth s_high]; do 3 (split; [reflexivity|]);
    intro n; destruct (n_start n); split; congruence.
Qed.

(* The last node n is anchored at the open event a: a began no later than n, is n's own event if n is a start node, only
   events without nodes are open above a, and some event with nodes is still open (so that a has a parent to hand n over
   to when it closes without nodes of its own). *)
Record Anchored (tab : list hev) (stack : list Z) (a : Z) (n : hnode) : Prop := mkAnchored {
  anc_ts : ts_of tab a <= n_ts n;
  anc_start : n_start n = true -> an_of tab a = true;
  anc_depth : 0 < count (an_of tab) stack;
  anc_pos : exists above rest, stack = above ++ a :: rest /\ Forall (fun u => an_of tab u = false) above }.

Lemma anchored_self tab stack i e :
  hlookup tab i = Some e -> h_an e = true -> Anchored tab (i :: stack) i (mkHN i true (h_ts e)).
Proof.
  intros Hl Ha. destruct (lookup_fields tab i e Hl) as (Hts & _ & Han & _). rewrite Ha in Han. constructor.
  - rewrite Hts. apply Z.le_refl.
  - intros _. exact Han.
  - rewrite (count_an_yes tab i stack Han). pose proof (count_nonneg (an_of tab) stack). lia.
  - exists [], stack. split; [reflexivity | constructor].
Qed.

Lemma anchored_push tab stack i a n : an_of tab i = false -> Anchored tab stack a n -> Anchored tab (i :: stack) a n.
Proof.
  intros Hi [Hts Hst Hcnt (above & rest & Hpos & Hab)]. constructor; [exact Hts | exact Hst | rewrite (count_an_no tab i stack Hi); exact Hcnt |].
  exists (i :: above), rest. split; [rewrite Hpos; reflexivity | constructor; assumption].
Qed.

(* leaving an event with nodes while another one is open: its end node is anchored at its parent *)
Lemma anchored_parent tab stack i e :
  chain tab (i :: stack) -> hlookup tab i = Some e -> 0 < count (an_of tab) stack -> Anchored tab stack (h_parent e) (mkHN i false (h_end e)).
Proof.
  intros Hc Hl Hcnt. destruct (lookup_fields tab i e Hl) as (Hts & Hen & _ & Hpa & _). destruct stack as [|p st]; [cbn in Hcnt; lia|].
  destruct Hc as (_ & Hte & (Hp & Hlo & _) & _). rewrite <- Hpa, Hp. constructor.
  - cbn [n_ts]. lia.
  - discriminate.
  - exact Hcnt.
  - exists [], st. split; [reflexivity | constructor].
Qed.

(* leaving an event without nodes: an anchor below it stays; if it is the anchor itself, n is an end node and its parent takes over *)
Lemma anchored_pop tab stack i e a n :
  chain tab (i :: stack) -> ~ In i stack -> hlookup tab i = Some e -> h_an e = false -> Anchored tab (i :: stack) a n ->
  a <> i /\ Anchored tab stack a n \/ a = i /\ n_start n = false /\ Anchored tab stack (h_parent e) n.
Proof.
  intros Hc Hni Hl Ha [Hts Hst Hcnt (above & rest & Hpos & Hab)]. destruct (lookup_fields tab i e Hl) as (_ & _ & Han & Hpa & _).
  rewrite Ha in Han. rewrite (count_an_no tab i stack Han) in Hcnt. destruct above as [|u above]; injection Hpos as Hu Hpos.
  - right. subst a rest. split; [reflexivity|].
    assert (Hs : n_start n = false) by (destruct (n_start n); [rewrite (Hst eq_refl) in Han; discriminate | reflexivity]).
    split; [exact Hs|]. destruct stack as [|p st]; [cbn in Hcnt; lia|]. destruct Hc as (_ & _ & (Hp & Hlo & _) & _).
    rewrite <- Hpa, Hp. constructor; [lia | rewrite Hs; discriminate | exact Hcnt | exists [], st; split; [reflexivity | constructor]].
  - left. subst u. assert (Hin : In a stack) by (rewrite Hpos; apply in_elt). split; [intro E; subst a; exact (Hni Hin)|].
    constructor; [exact Hts | exact Hst | exact Hcnt | exists above, rest; split; [exact Hpos | exact (Forall_inv_tail Hab)]].
Qed.

(* below an open event with nodes nothing is anchored *)
Lemma anchored_top tab stack i a n : an_of tab i = true -> Anchored tab (i :: stack) a n -> a = i /\ ts_of tab i <= n_ts n.
Proof.
  intros Hi [Hts _ _ ([|u above] & rest & Hpos & Hab)]; injection Hpos as Hu _.
  - subst a. split; [reflexivity | exact Hts].
  - subst u. rewrite (Forall_inv Hab) in Hi. discriminate.
Qed.

(* the anchor's span begins no later than n and reaches to the end of whatever opens within the open events *)
Lemma anchored_covers tab stack i a n : chain tab (i :: stack) -> Anchored tab stack a n ->
  exists ev, hlookup tab a = Some ev /\ h_ts ev <= n_ts n /\ end_of tab i <= h_end ev.
Proof.
  intros Hc [Hts _ _ (above & rest & Hpos & _)]. assert (Hin : In a (i :: stack)) by (right; rewrite Hpos; apply in_elt).
  destruct (chain_in tab stack i Hc a Hin) as [[ev Hl] Hle]. destruct (lookup_fields tab a ev Hl) as (Ea & Eb & _).
  exists ev. split; [exact Hl | lia].
Qed.

(* the builder's state against the open events and the time reached *)
Record State (tab : list hev) (stack : list Z) (cursor : Z) (s : hst) : Prop := mkState {
  st_depth : s_depth s = count (an_of tab) stack;
  st_high : forall h, s_high s = Some h -> n_ts h <= cursor;
  st_last : forall n, s_last s = Some n -> n_ts n <= cursor /\ Anchored tab stack (anchor s n) n }.

Lemma state_later tab stack cursor c' s : cursor <= c' -> State tab stack cursor s -> State tab stack c' s.
Proof.
  intros Hc [Hdep Hhigh Hlast]. constructor; [exact Hdep | |].
  - intros h Hh. apply Z.le_trans with cursor; [exact (Hhigh h Hh) | exact Hc].
  - intros n Hn. destruct (Hlast n Hn) as [Hle HA]. split; [apply Z.le_trans with cursor; assumption | exact HA].
Qed.

Lemma step_enter tab stack cursor s i e :
  State tab stack cursor s -> hlookup tab i = Some e -> cursor <= h_ts e -> chain tab (i :: stack) ->
  State tab (i :: stack) (h_ts e) (fst (hstep tab s (Enter i))) /\ Forall (Good tab) (snd (hstep tab s (Enter i))).
Proof.
  intros HS Hl Hcur Hc. destruct (state_later tab stack cursor (h_ts e) s Hcur HS) as [Hdep Hhigh Hlast].
  destruct (lookup_fields tab i e Hl) as (Hts & Hen & Han & _). cbn [hstep]. rewrite Hl. destruct (h_an e) eqn:Ea; cbn [fst snd].
  - (* an event with nodes: its start node becomes the last node; a dependency edge and a span edge lead to it *)
    split.
    + constructor; cbn [s_last s_lastp s_depth s_high].
      * rewrite (count_an_yes tab i stack Han), Hdep. reflexivity.
      * exact Hhigh.
      * intros n Hn. injection Hn as <-. split; [apply Z.le_refl | exact (anchored_self tab stack i e Hl Ea)].
    + apply Forall_app. split.
      * destruct (s_high s) as [h|]; [|constructor]. destruct (s_depth s =? 0); constructor; [|constructor].
        apply good_dep. exact (Hhigh h eq_refl).
      * destruct (s_last s) as [n|]; constructor; [|constructor]. destruct (Hlast n eq_refl) as [Hn HA]. rewrite attr_to_start.
        destruct (anchored_covers tab stack i _ n Hc HA) as (a & Ha & Hlo & Hhi). destruct Hc as (_ & Hte & _).
        apply (good_span tab n _ _ _ a Ha Hlo); cbn [n_ts]; [exact Hn | lia | left; reflexivity].
  - (* an event without nodes: the state is unchanged *)
    split; [|constructor]. constructor.
    + rewrite (count_an_no tab i stack Han). exact Hdep.
    + exact Hhigh.
    + intros n Hn. destruct (Hlast n Hn) as [Hle HA]. split; [exact Hle | exact (anchored_push tab stack i _ n Han HA)].
Qed.

Lemma step_exit tab stack cursor s i e :
  State tab (i :: stack) cursor s -> hlookup tab i = Some e -> cursor <= h_end e -> chain tab (i :: stack) -> ~ In i stack ->
  State tab stack (h_end e) (fst (hstep tab s (Exit i))) /\ Forall (Good tab) (snd (hstep tab s (Exit i))).
Proof.
  intros HS Hl Hcur Hc Hni. destruct (state_later tab (i :: stack) cursor (h_end e) s Hcur HS) as [Hdep Hhigh Hlast].
  destruct (lookup_fields tab i e Hl) as (Hts & _ & Han & _ & Hbl). cbn [hstep]. rewrite Hl. destruct (h_an e) eqn:Ea; cbn [fst snd].
  - (* an event with nodes closes: a span edge to its end node, which becomes the last node unless the depth falls to zero *)
    assert (Hd : s_depth s - 1 = count (an_of tab) stack) by (rewrite Hdep, (count_an_yes tab i stack Han); apply Z.add_simpl_r).
    split.
    + destruct (s_depth s - 1 =? 0) eqn:Ed; constructor; cbn [s_last s_lastp s_depth s_high]; try exact Hd; try exact Hhigh.
      * intros h Hh. injection Hh as <-. apply Z.le_refl.
      * discriminate.
      * intros n Hn. injection Hn as <-. split; [apply Z.le_refl|]. apply (anchored_parent tab stack i e Hc Hl).
        apply Z.eqb_neq in Ed. pose proof (count_nonneg (an_of tab) stack). lia.
    + destruct (s_last s) as [n|]; constructor; [|constructor]. destruct (Hlast n eq_refl) as [Hn HA].
      destruct (anchored_top tab stack i _ n Han HA) as [Htop Hlo]. rewrite (attr_to_end s n i _ Htop). rewrite Hts in Hlo.
      apply (good_span tab n _ _ _ e Hl Hlo); cbn [n_ts n_start n_ev]; [exact Hn | apply Z.le_refl|].
      rewrite Hbl. destruct (h_block e); [right; auto | left; reflexivity].
  - (* an event without nodes closes: no edge; a pending end -> start gap now lies in its parent *)
    split; [|constructor]. destruct (reparent s i (h_parent e)) as (El & Ed & Eh & Hanc). constructor; rewrite ?El, ?Ed, ?Eh.
    + rewrite <- (count_an_no tab i stack Han). exact Hdep.
    + exact Hhigh.
    + intros n Hn. destruct (Hlast n Hn) as [Hle HA]. split; [exact Hle|]. destruct (Hanc n) as [Hkeep Hmove].
      destruct (anchored_pop tab stack i e _ n Hc Hni Hl Ea HA) as [[Hne HA']|(Heq & Hs & HA')].
      * rewrite (Hkeep Hne). exact HA'.
      * rewrite (Hmove Heq Hs). exact HA'.
Qed.

Lemma run_good tab : forall acts stack seen cursor s,
  Open tab stack seen cursor -> State tab stack cursor s -> wf_actions tab stack seen cursor acts = true ->
  Forall (Good tab) (hrun tab s acts).
Proof.
  induction acts as [|a r IH]; intros stack seen cursor s HO HS Hwf; [constructor|]. cbn [hrun]. destruct a as [i|i].
  - destruct (wf_enter tab stack seen cursor i r HO Hwf) as (e & Hl & Hcur & HO' & Hr).
    destruct (step_enter tab stack cursor s i e HS Hl Hcur (open_chain _ _ _ _ HO')) as [HS' Hg].
    destruct (hstep tab s (Enter i)) as [s' es]. apply Forall_app. split; [exact Hg | exact (IH _ _ _ _ HO' HS' Hr)].
  - destruct (wf_exit tab stack seen cursor i r HO Hwf) as (e & rest & -> & Hl & Hcur & HO' & Hr).
    pose proof (proj1 (proj1 (NoDup_cons_iff i rest) (open_nodup _ _ _ _ HO))) as Hni.
    destruct (step_exit tab rest cursor s i e HS Hl Hcur (open_chain _ _ _ _ HO) Hni) as [HS' Hg].
    destruct (hstep tab s (Exit i)) as [s' es]. apply Forall_app. split; [exact Hg | exact (IH _ _ _ _ HO' HS' Hr)].
Qed.

Theorem host_edges_good tab acts t0 : wf_actions tab [] [] t0 acts = true -> Forall (Good tab) (host_edges_of tab acts).
Proof.
  apply run_good.
  - constructor; [exact I | constructor | apply incl_refl | exact I].
  - constructor; [reflexivity | discriminate | discriminate].
Qed.
