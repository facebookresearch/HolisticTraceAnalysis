(* merge_kernel_intervals (hta/utils/utils.py:130-144) and its measure theory.
   Intervals are pairs (s, e) = (ts, ts + dur). *)
From Coq Require Import Permutation Sorted.
From HTA.lib Require Import ListExtra Base Cells.
Open Scope Z_scope.

Notation itv := (Z * Z)%type.

Definition covered (l : list itv) (t : Z) : bool := existsb (fun i => inb (fst i) (snd i) t) l.
Definition cover_count (l : list itv) (t : Z) : Z := sumZ (map (fun i => b2z (inb (fst i) (snd i) t)) l).
Definition total (l : list itv) : Z := sumZ (map (fun i => snd i - fst i) l).
Definition wf_itvs (l : list itv) : Prop := Forall (fun i => fst i <= snd i) l.
Definition sorted_ts (l : list itv) : Prop := StronglySorted (fun a b => fst a <= fst b) l.

(* executable model of merge_kernel_intervals on a ts-sorted list:
   group := (ts > end.shift().cummax()).cumsum(): a new group starts iff ts is strictly greater
   than the running maximum m of ALL previous ends; group value = (min ts, max end). *)
Fixpoint merge_aux (cs ce m : Z) (l : list itv) : list itv :=
  match l with
  | [] => [(cs, ce)]
  | (s, e) :: r =>
      if m <? s then (cs, ce) :: merge_aux s e (Z.max m e) r
      else merge_aux (Z.min cs s) (Z.max ce e) (Z.max m e) r
  end.

Definition merge_sorted (l : list itv) : list itv :=
  match l with [] => [] | (s, e) :: r => merge_aux s e e r end.

(* an insertion sort by ts (equal starts come out in reverse order); the theorems quantify over every ts-sorted permutation *)
Fixpoint insert_ts (x : itv) (l : list itv) : list itv :=
  match l with
  | [] => [x]
  | y :: r => if fst x <? fst y then x :: l else y :: insert_ts x r
  end.
Definition sort_ts (l : list itv) : list itv := fold_right insert_ts [] l.
Definition merge (l : list itv) : list itv := merge_sorted (sort_ts l).

Lemma insert_ts_ok : is_insert (fun x y : itv => fst x <? fst y) insert_ts.
Proof. split; reflexivity. Qed.

Lemma sort_ts_perm l : Permutation l (sort_ts l).
Proof. apply (isort_perm insert_ts_ok). Qed.

Lemma sort_ts_sorted l : sorted_ts (sort_ts l).
Proof. apply (isort_key_sorted fst insert_ts_ok). Qed.

Lemma sorted_head_min (i : itv) (l : list itv) :
  sorted_ts (i :: l) -> forall j, In j (i :: l) -> fst i <= fst j.
Proof.
  intros Hs j Hj. inversion Hs as [|? ? _ Hall]; subst.
  destruct Hj as [Hj|Hj]; [subst; lia|]. rewrite Forall_forall in Hall. apply Hall. exact Hj.
Qed.

Lemma covered_cons i l t : covered (i :: l) t = inb (fst i) (snd i) t || covered l t.
Proof. reflexivity. Qed.

Lemma covered_app l1 l2 t : covered (l1 ++ l2) t = covered l1 t || covered l2 t.
Proof. unfold covered. apply existsb_app. Qed.

Lemma covered_true_iff l t : covered l t = true <-> exists i, In i l /\ fst i <= t < snd i.
Proof.
  unfold covered. rewrite existsb_exists. split; intros [i [Hi H]]; exists i; split; auto;
    unfold inb in *; lia.
Qed.

Lemma covered_incl C D t : incl C D -> covered C t = true -> covered D t = true.
Proof.
  intros Hi Hc. apply covered_true_iff in Hc. destruct Hc as [i [Hin Ht]].
  apply covered_true_iff. exists i. split; [apply Hi; exact Hin | exact Ht].
Qed.

Lemma covered_perm l l' t : Permutation l l' -> covered l t = covered l' t.
Proof.
  intro H. apply eq_true_iff_eq.
  split; apply covered_incl; intro i; apply Permutation_in; [|apply Permutation_sym]; exact H.
Qed.

Lemma total_cons i l : total (i :: l) = (snd i - fst i) + total l.
Proof. reflexivity. Qed.

(* first ts / last end of the merged list (the code's iloc[0].ts and iloc[-1].end) *)
Definition first_ts (l : list itv) : Z := match l with [] => 0 | i :: _ => fst i end.
Definition last_end (l : list itv) : Z := snd (last l (0, 0)).

Definition min_ts (l : list itv) : Z := match l with [] => 0 | i :: r => minZ (fst i) (map fst (i :: r)) end.

Fixpoint max_end (d : Z) (l : list itv) : Z :=
  match l with [] => d | i :: r => max_end (Z.max d (snd i)) r end.

(* the running maximum is the library's maximum over d and the ends *)
Lemma max_end_maxZ d l : max_end d l = maxZ d (d :: map snd l).
Proof.
  revert d. induction l as [|i r IH]; intro d; cbn [max_end map maxZ]; [lia|].
  rewrite IH. destruct r; cbn [map maxZ]; lia.
Qed.

Lemma max_end_mono d d' l : d <= d' -> max_end d l <= max_end d' l.
Proof. revert d d'. induction l as [|i r IH]; intros d d' H; simpl; [lia|]. apply IH. lia. Qed.

Lemma max_end_bound d l hi : d <= hi -> Forall (fun i => snd i <= hi) l -> max_end d l <= hi.
Proof.
  revert d. induction l as [|i r IH]; intros d Hd Hall; simpl; [lia|].
  inversion Hall; subst. apply IH; [lia | assumption].
Qed.

(* separated: well-formed groups in ts order with a gap > 0 between neighbours *)
Inductive separated : list itv -> Prop :=
| sep_nil : separated []
| sep_one i : fst i <= snd i -> separated [i]
| sep_cons i j r : fst i <= snd i -> snd i < fst j -> separated (j :: r) -> separated (i :: j :: r).

Lemma separated_tail i l : separated (i :: l) -> separated l.
Proof. intro Hs. inversion Hs; subst; [constructor | assumption]. Qed.

Lemma separated_wf l : separated l -> wf_itvs l.
Proof.
  induction 1 as [|i Hi|i j r Hi _ _ IH].
  - constructor.
  - constructor; [exact Hi | constructor].
  - constructor; [exact Hi | exact IH].
Qed.

Lemma separated_span l : separated l -> forall k, In k l -> first_ts l <= fst k /\ snd k <= last_end l.
Proof.
  induction 1 as [|i Hi|i j r Hi Hij Hs IH]; intros k Hk.
  - destruct Hk.
  - destruct Hk as [<-|[]]. unfold last_end. cbn. lia.
  - change (last_end (i :: j :: r)) with (last_end (j :: r)). cbn [first_ts] in *.
    pose proof (IH j (or_introl eq_refl)) as Hj. assert (fst j <= snd j) by (inversion Hs; assumption).
    destruct Hk as [<-|Hk]; [|apply IH in Hk]; lia.
Qed.

Lemma separated_lower i l k : separated (i :: l) -> In k l -> snd i < fst k.
Proof.
  intros Hs Hk. inversion Hs as [| |? j r _ Hij Hs']; subst; [destruct Hk|].
  apply (separated_span _ Hs') in Hk. cbn [first_ts] in Hk. lia.
Qed.

Lemma separated_disjoint i l t : separated (i :: l) -> inb (fst i) (snd i) t = true -> covered l t = false.
Proof.
  intros Hs Hi. destruct (covered l t) eqn:C; [|reflexivity].
  apply covered_true_iff in C. destruct C as [k [Hk Ht]].
  pose proof (separated_lower i l k Hs Hk). unfold inb in Hi. lia.
Qed.

Lemma separated_total l lo hi :
  separated l -> (forall i, In i l -> lo <= fst i /\ snd i <= hi) -> total l = cells (covered l) lo hi.
Proof.
  induction l as [|i l IH]; intros Hs Hb.
  - symmetry. apply cells_false. reflexivity.
  - rewrite total_cons, IH by (eauto using separated_tail, in_cons).
    rewrite (cells_add (inb (fst i) (snd i)) (covered l) (covered (i :: l))).
    + pose proof (Hb i (or_introl eq_refl)). apply separated_wf in Hs. inversion Hs; subst.
      rewrite cells_interval; lia.
    + intros t _. rewrite covered_cons. destruct (inb (fst i) (snd i) t) eqn:E; [|reflexivity].
      rewrite (separated_disjoint i l t Hs E). reflexivity.
Qed.

Lemma merge_aux_nonempty l : forall cs ce m, merge_aux cs ce m l <> [].
Proof.
  induction l as [|[s e] r IH]; intros cs ce m; cbn [merge_aux]; [discriminate|].
  destruct (m <? s); [discriminate | apply IH].
Qed.

(* All that the callers use of the groups.  The induction keeps the current group (s, e) as the head of the list: it is
   the earliest start so far and its end is the running maximum (on well-formed input the arguments ce and m of merge_aux
   agree), so an interval that joins the group only moves e. *)
Lemma merge_sorted_spec l : forall s e, wf_itvs ((s, e) :: l) -> sorted_ts ((s, e) :: l) ->
  let out := merge_sorted ((s, e) :: l) in
  separated out /\ first_ts out = s /\ last_end out = max_end e l /\
  forall t, covered out t = covered ((s, e) :: l) t.
Proof.
  induction l as [|[s' e'] r IH]; intros s e Hw Hs.
  - inversion Hw as [|? ? Hse _]; subst. repeat split. apply sep_one, Hse.
  - inversion Hw as [|? ? Hse Hw']; subst. inversion Hw' as [|? ? Hse' Hw'']; subst. cbn [fst snd] in Hse, Hse'.
    inversion Hs as [|? ? Hs' Hall]; subst. inversion Hall as [|? ? Hss' Hall']; subst. cbn [fst] in Hss'.
    cbn [merge_sorted merge_aux max_end snd]. destruct (e <? s') eqn:E.
    + (* e < s': (s, e) is complete, (s', e') opens the next group *)
      replace (Z.max e e') with e' by lia.
      pose proof (merge_aux_nonempty r s' e' e') as Hne.
      change (merge_aux s' e' e' r) with (merge_sorted ((s', e') :: r)) in *.
      destruct (IH s' e' Hw' Hs') as (Hsep & Hf & Hl & Hc).
      destruct (merge_sorted ((s', e') :: r)) as [|[s'' e''] out]; [congruence|].
      cbn [first_ts fst] in Hf. subst s''. repeat split.
      * constructor; [exact Hse | cbn; lia | exact Hsep].
      * exact Hl.
      * intro t. rewrite covered_cons, Hc. reflexivity.
    + (* s <= s' <= e: (s', e') joins the group *)
      replace (Z.min s s') with s by lia.
      change (merge_aux s (Z.max e e') (Z.max e e') r) with (merge_sorted ((s, Z.max e e') :: r)).
      destruct (IH s (Z.max e e')) as (Hsep & Hf & Hl & Hc).
      * constructor; [cbn; lia | exact Hw''].
      * inversion Hs'; subst. constructor; assumption.
      * repeat split; try assumption.
        intro t. rewrite Hc, !covered_cons. cbn [fst snd]. rewrite orb_assoc. f_equal. unfold inb. lia.
Qed.

Lemma merge_sorted_separated l : wf_itvs l -> sorted_ts l -> separated (merge_sorted l).
Proof. intros Hw Hs. destruct l as [|[s e] r]; [constructor | apply merge_sorted_spec; assumption]. Qed.

Lemma merge_sorted_covered l t : wf_itvs l -> sorted_ts l -> covered (merge_sorted l) t = covered l t.
Proof. intros Hw Hs. destruct l as [|[s e] r]; [reflexivity | apply merge_sorted_spec; assumption]. Qed.

Lemma merge_sorted_bounds l lo hi :
  wf_itvs l -> sorted_ts l -> (forall i, In i l -> lo <= fst i /\ snd i <= hi) ->
  forall i, In i (merge_sorted l) -> lo <= fst i /\ snd i <= hi.
Proof.
  intros Hw Hs Hb i Hi. destruct l as [|[s e] r]; [destruct Hi|].
  destruct (merge_sorted_spec r s e Hw Hs) as (Hsep & Hf & Hl & _).
  apply (separated_span _ Hsep) in Hi. rewrite Hf, Hl in Hi.
  pose proof (Hb (s, e) (or_introl eq_refl)) as Hse. cbn [fst snd] in Hse.
  assert (max_end e r <= hi).
  { apply max_end_bound; [lia|]. rewrite Forall_forall. intros j Hj. apply Hb. right. exact Hj. }
  lia.
Qed.

Lemma merge_sorted_any l l' lo hi :
  wf_itvs l -> Permutation l l' -> sorted_ts l' -> (forall i, In i l -> lo <= fst i /\ snd i <= hi) ->
  separated (merge_sorted l') /\ (forall i, In i (merge_sorted l') -> lo <= fst i /\ snd i <= hi) /\
  forall t, covered (merge_sorted l') t = covered l t.
Proof.
  intros Hw Hp Hs Hb. apply (Permutation_Forall Hp) in Hw.
  assert (Hb' : forall i, In i l' -> lo <= fst i /\ snd i <= hi).
  { intros i Hi. apply Hb, (Permutation_in _ (Permutation_sym Hp)), Hi. }
  split; [apply merge_sorted_separated; assumption|]. split; [apply merge_sorted_bounds; assumption|].
  intro t. rewrite merge_sorted_covered by assumption. symmetry. apply covered_perm, Hp.
Qed.

Theorem total_merge_any C C' lo hi :
  wf_itvs C -> Permutation C C' -> sorted_ts C' ->
  (forall i, In i C -> lo <= fst i /\ snd i <= hi) ->
  total (merge_sorted C') = cells (covered C) lo hi.
Proof.
  intros Hw Hp Hs Hb. destruct (merge_sorted_any C C' lo hi Hw Hp Hs Hb) as (Hsep & Hin & Hcov).
  rewrite (separated_total _ lo hi Hsep Hin). apply cells_ext. intros t _. apply Hcov.
Qed.
