(* Shared vocabulary: events, string helpers, kernel classification (executable definitions), and the lemmas about sums,
   extrema and counts that the proofs share.
   ZifyBool is loaded here, so in every file that imports Base `lia` also decides boolean comparisons ((a <? b) = true ...);
   the price is a case split on every boolean equation in the context: keep contexts small where lia runs. *)
From Coq Require Export ZArith List Bool String Ascii Lia.
From Coq Require Import ZifyBool Permutation Sorted.
From HTA.lib Require Import ListExtra.
Export ListNotations.
Open Scope string_scope.
Open Scope Z_scope.

(* a boolean combination of integer comparisons, read as the proposition it decides: autorewrite with bool_prop *)
#[export] Hint Rewrite andb_true_iff orb_true_iff negb_true_iff Z.eqb_eq Z.eqb_neq Z.leb_le Z.ltb_lt : bool_prop.

(* an event of a loaded frame: the primary columns *)
Record ev := mkEv {
  idx : Z; ts : Z; dur : Z; pid : Z; tid : Z; stream : Z; corr : Z; icorr : Z; iter : Z;
  name : string; cat : string }.

Definition eend (e : ev) : Z := ts e + dur e.

Fixpoint starts_with (p s : string) : bool :=
  match p, s with
  | EmptyString, _ => true
  | String a p', String b s' => Ascii.eqb a b && starts_with p' s'
  | String _ _, EmptyString => false
  end.

Fixpoint contains (p s : string) : bool :=
  starts_with p s || match s with EmptyString => false | String _ s' => contains p s' end.

Fixpoint drop_str (n : nat) (s : string) : string :=
  match n, s with
  | O, _ => s
  | S n', String _ s' => drop_str n' s'
  | S _, EmptyString => EmptyString
  end.

Fixpoint take_str (n : nat) (s : string) : string :=
  match n, s with
  | O, _ => EmptyString
  | S n', String a s' => String a (take_str n' s')
  | S _, EmptyString => EmptyString
  end.

Definition str_in (s : string) (l : list string) : bool := existsb (String.eqb s) l.

Lemma str_in_In s l : str_in s l = true <-> In s l.
Proof. apply (existsb_eqb_In String.eqb String.eqb_eq). Qed.

Fixpoint index_of (s : string) (l : list string) : Z :=
  match l with
  | [] => -1
  | x :: r => if String.eqb s x then 0 else let i := index_of s r in if i <? 0 then -1 else i + 1
  end.

(* kernel classification: hta/utils/utils.py get_kernel_type
   NCCL_KERNEL_RE          ^nccl.*Kernel
   MEMORY_KERNEL_RE        (^Memcpy)|(^Memset)|(^dma)
   NCCL_COMPUTE_KERNEL_RE  (^nccl.*Kernel)|(.*(Memcpy)|(Memset))|(.*Sync)
   all used with re.match (anchored at position 0); names contain no newline.  In the third, `.*` binds tighter than `|`:
   (.*(Memcpy)|(Memset)) is `.*Memcpy` or `Memset` at position 0, hence `contains "Memcpy"` but `starts_with "Memset"` below.
   The regex source strings are checked against these literals by harness/translate.py. *)
Inductive ktype := COMMUNICATION | MEMORY | COMPUTATION | OTHER.

Definition is_comm_kernel (n : string) : bool :=
  starts_with "nccl" n && contains "Kernel" (drop_str 4 n).
Definition is_memory_kernel (n : string) : bool :=
  starts_with "Memcpy" n || starts_with "Memset" n || starts_with "dma" n.
Definition nccl_compute_re (n : string) : bool :=
  is_comm_kernel n || contains "Memcpy" n || starts_with "Memset" n || contains "Sync" n.
Definition is_compute_kernel (n : string) : bool := negb (nccl_compute_re n).

Definition get_kernel_type (n : string) : ktype :=
  if is_comm_kernel n then COMMUNICATION
  else if is_memory_kernel n then MEMORY
  else if is_compute_kernel n then COMPUTATION
  else OTHER.

Definition ktype_eqb (a b : ktype) : bool :=
  match a, b with
  | COMMUNICATION, COMMUNICATION | MEMORY, MEMORY | COMPUTATION, COMPUTATION | OTHER, OTHER => true
  | _, _ => false
  end.

Lemma ktype_eqb_eq a b : ktype_eqb a b = true <-> a = b.
Proof. destruct a, b; simpl; split; intro H; try reflexivity; discriminate. Qed.

Definition ktype_code (k : ktype) : Z :=
  match k with COMMUNICATION => 0 | MEMORY => 1 | COMPUTATION => 2 | OTHER => 3 end.

(* host/device side: hta/common/trace_filter.py _filter_gpu_kernels_with_cuda_sync *)
Definition is_dev (e : ev) : bool :=
  ((stream e >=? 0) && (corr e >=? 0))
  || String.eqb (name e) "Event Sync" || String.eqb (name e) "Context Sync".
Definition is_host (e : ev) : bool := negb (is_dev e).

Definition sumZ (l : list Z) : Z := fold_right Z.add 0 l.

Lemma sumZ_cons x l : sumZ (x :: l) = x + sumZ l.
Proof. reflexivity. Qed.

Lemma sumZ_app l1 l2 : sumZ (l1 ++ l2) = sumZ l1 + sumZ l2.
Proof. induction l1 as [|x l1 IH]; simpl; lia. Qed.

Lemma sumZ_perm l l' : Permutation l l' -> sumZ l = sumZ l'.
Proof. induction 1; rewrite ?sumZ_cons; lia. Qed.

Lemma sumZ_concat l : sumZ (List.concat l) = sumZ (map sumZ l).
Proof. induction l as [|a l IH]; [reflexivity|]. cbn [List.concat map]. rewrite sumZ_app, sumZ_cons, IH. reflexivity. Qed.

Lemma sumZ_map_add {A} (f g : A -> Z) l : sumZ (map (fun x => f x + g x) l) = sumZ (map f l) + sumZ (map g l).
Proof. induction l as [|x l IH]; [reflexivity|]. cbn [map]. rewrite !sumZ_cons. lia. Qed.

Lemma sumZ_scale k l : sumZ (map (Z.mul k) l) = k * sumZ l.
Proof. induction l as [|x l IH]; [cbn; lia|]. cbn [map]. rewrite !sumZ_cons. lia. Qed.

Lemma length_sumZ {A} (l : list A) : Z.of_nat (List.length l) = sumZ (map (fun _ => 1) l).
Proof. induction l as [|x l IH]; [reflexivity|]. cbn [List.length map]. rewrite sumZ_cons. lia. Qed.

Lemma sumZ_zero {A} (f : A -> Z) l : (forall x, In x l -> f x = 0) -> sumZ (map f l) = 0.
Proof.
  induction l as [|x l IH]; intro H; [reflexivity|]. cbn [map]. rewrite sumZ_cons, IH, H; [reflexivity | left; reflexivity|].
  intros y Hy. apply H. right. exact Hy.
Qed.

Lemma sumZ_le {A} (f g : A -> Z) l : (forall x, In x l -> f x <= g x) -> sumZ (map f l) <= sumZ (map g l).
Proof.
  induction l as [|x l IH]; intro H; [reflexivity|]. cbn [map]. rewrite !sumZ_cons.
  pose proof (H x (or_introl eq_refl)). specialize (IH (fun y Hy => H y (or_intror Hy))). lia.
Qed.

Lemma sumZ_nonneg {A} (f : A -> Z) l : (forall x, In x l -> 0 <= f x) -> 0 <= sumZ (map f l).
Proof. intro H. apply (sumZ_le (fun _ => 0)) in H. rewrite sumZ_zero in H by reflexivity. exact H. Qed.

Lemma sumZ_flat_map {A B} (g : B -> Z) (f : A -> list B) l :
  sumZ (map g (flat_map f l)) = sumZ (map (fun a => sumZ (map g (f a))) l).
Proof. rewrite map_flat_map, flat_map_concat_map, sumZ_concat, map_map. reflexivity. Qed.

(* exactly one key of a duplicate-free list is q *)
Lemma sumZ_indicator {K} (eqb : K -> K -> bool) (q : K) (v : Z) ks :
  (forall a b, eqb a b = true <-> a = b) -> NoDup ks -> In q ks -> sumZ (map (fun k => if eqb q k then v else 0) ks) = v.
Proof.
  intro Heq. induction 1 as [|k ks Hk Hnd IH]; intro Hin; [destruct Hin|]. cbn [map]. rewrite sumZ_cons.
  destruct (eqb q k) eqn:E.
  - apply Heq in E. subst k. rewrite sumZ_zero; [lia|]. intros k Hk'.
    destruct (eqb q k) eqn:E; [apply Heq in E; subst; contradiction | reflexivity].
  - destruct Hin as [Hin|Hin]; [subst; rewrite (proj2 (Heq _ _) eq_refl) in E; discriminate|]. rewrite IH by exact Hin. lia.
Qed.

(* group-by: the per-key sums over a duplicate-free key list that covers every element add up to the whole *)
Lemma sum_by_key {A K} (eqb : K -> K -> bool) (key : A -> K) (w : A -> Z) ks l :
  (forall a b, eqb a b = true <-> a = b) -> NoDup ks -> (forall x, In x l -> In (key x) ks) ->
  sumZ (map (fun k => sumZ (map w (filter (fun x => eqb (key x) k) l))) ks) = sumZ (map w l).
Proof.
  intros Heq Hnd. induction l as [|x l IH]; intro Hall.
  - apply sumZ_zero. reflexivity.
  - cbn [map]. rewrite sumZ_cons, <- IH by (intros y Hy; apply Hall; right; exact Hy).
    rewrite <- (sumZ_indicator eqb (key x) (w x) ks Heq Hnd) at 1 by (apply Hall; left; reflexivity).
    rewrite <- sumZ_map_add. f_equal. apply map_ext. intro k. cbn [filter].
    destruct (eqb (key x) k); [apply sumZ_cons | reflexivity].
Qed.

Fixpoint minZ (d : Z) (l : list Z) : Z :=
  match l with [] => d | x :: r => Z.min x (minZ x r) end.
Fixpoint maxZ (d : Z) (l : list Z) : Z :=
  match l with [] => d | x :: r => Z.max x (maxZ x r) end.

(* on a non-empty list both are attained bounds, whatever the default *)
Lemma minZ_le d l x : In x l -> minZ d l <= x.
Proof.
  revert d. induction l as [|y l IH]; intros d Hx; [destruct Hx|]. cbn [minZ].
  destruct Hx as [Hx|Hx]; [subst; lia|]. specialize (IH y Hx). lia.
Qed.

Lemma minZ_in d l : l <> [] -> In (minZ d l) l.
Proof.
  revert d. induction l as [|y l IH]; intros d Hne; [congruence|]. cbn [minZ].
  destruct l as [|z l']; [left; cbn; lia|]. specialize (IH y ltac:(discriminate)).
  destruct (Z.min_spec y (minZ y (z :: l'))) as [[_ E]|[_ E]]; rewrite E; [left; reflexivity | right; exact IH].
Qed.

Lemma maxZ_ge d l x : In x l -> x <= maxZ d l.
Proof.
  revert d. induction l as [|y l IH]; intros d Hx; [destruct Hx|]. cbn [maxZ].
  destruct Hx as [Hx|Hx]; [subst; lia|]. specialize (IH y Hx). lia.
Qed.

Lemma maxZ_in d l : l <> [] -> In (maxZ d l) l.
Proof.
  revert d. induction l as [|y l IH]; intros d Hne; [congruence|]. cbn [maxZ].
  destruct l as [|z l']; [left; cbn; lia|]. specialize (IH y ltac:(discriminate)).
  destruct (Z.max_spec y (maxZ y (z :: l'))) as [[_ E]|[_ E]]; rewrite E; [right; exact IH | left; reflexivity].
Qed.

Lemma maxZ_map_attained {A} (g : A -> Z) d l :
  l <> [] -> exists a, In a l /\ g a = maxZ d (map g l) /\ forall b, In b l -> g b <= g a.
Proof.
  intro Hne. assert (Hm : map g l <> []) by (destruct l; [congruence | discriminate]).
  pose proof (maxZ_in d _ Hm) as Hin. apply in_map_iff in Hin. destruct Hin as [a [Ea Ha]].
  exists a. repeat split; auto. intros b Hb. rewrite Ea. apply maxZ_ge, in_map, Hb.
Qed.

Lemma minZ_arg_iff {A} (f : A -> Z) d l e : In e l -> (f e = minZ d (map f l) <-> forall c, In c l -> f e <= f c).
Proof.
  intro He. split.
  - intros E c Hc. rewrite E. apply minZ_le, in_map, Hc.
  - intro Hle. pose proof (minZ_le d _ _ (in_map f _ _ He)) as Hlow.
    assert (Hin : In (minZ d (map f l)) (map f l)) by (apply minZ_in; destruct l; [destruct He | discriminate]).
    apply in_map_iff in Hin. destruct Hin as [c [E Hc]]. specialize (Hle c Hc). lia.
Qed.

Definition count {A} (f : A -> bool) (l : list A) : Z := Z.of_nat (List.length (filter f l)).

Lemma count_nil {A} (f : A -> bool) : count f [] = 0.
Proof. reflexivity. Qed.

Lemma count_cons {A} (f : A -> bool) x l :
  count f (x :: l) = (if f x then 1 else 0) + count f l.
Proof. unfold count; simpl; destruct (f x); simpl List.length; lia. Qed.

Lemma count_app {A} (f : A -> bool) l1 l2 : count f (l1 ++ l2) = count f l1 + count f l2.
Proof. unfold count; rewrite filter_app, app_length; lia. Qed.

Lemma count_nonneg {A} (f : A -> bool) l : 0 <= count f l.
Proof. unfold count; lia. Qed.

Lemma count_pos {A} (f : A -> bool) l : 0 < count f l <-> exists x, In x l /\ f x = true.
Proof.
  unfold count. setoid_rewrite <- filter_In. destruct (filter f l) as [|x r]; cbn [List.length In].
  - split; [lia | intros [x []]].
  - split; [eauto | lia].
Qed.

(* the models' memZ / memz, unfolded *)
Lemma memZ_In x l : existsb (Z.eqb x) l = true <-> In x l.
Proof. apply (existsb_eqb_In Z.eqb Z.eqb_eq). Qed.

Lemma find_by_key {A} (f : A -> Z) l r : NoDup (map f l) -> In r l -> find (fun p => f p =? f r) l = Some r.
Proof.
  intros Hnd Hr. destruct (find _ l) as [p|] eqn:F.
  - apply find_some in F. destruct F as [Hp E]. apply Z.eqb_eq in E. f_equal. apply (NoDup_map_eq f l); assumption.
  - apply (find_none _ _ F) in Hr. rewrite Z.eqb_refl in Hr. discriminate.
Qed.

Lemma isort_key_sorted {A} (key : A -> Z) {ins} (H : is_insert (fun x y => key x <? key y) ins) l :
  StronglySorted (fun a b => key a <= key b) (fold_right ins [] l).
Proof.
  apply (isort_sorted_total H).
  - intros x y z. apply Z.le_trans.
  - intros x y. destruct (Z.ltb_spec (key x) (key y)); lia.
Qed.

Definition b2z (b : bool) : Z := if b then 1 else 0.

(* lexicographic order on lists of Z, insertion sort: canonical form of row multisets *)
Fixpoint lexleb (a b : list Z) : bool :=
  match a, b with
  | [], _ => true
  | _ :: _, [] => false
  | x :: a', y :: b' => if x <? y then true else if y <? x then false else lexleb a' b'
  end.

Fixpoint insert_row (r : list Z) (l : list (list Z)) : list (list Z) :=
  match l with
  | [] => [r]
  | x :: l' => if lexleb r x then r :: l else x :: insert_row r l'
  end.

Definition sort_rows (l : list (list Z)) : list (list Z) := fold_right insert_row [] l.
