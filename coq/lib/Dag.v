(* Weighted directed graphs as edge lists: paths, potentials (longest-path certificates), rank functions (acyclicity). *)
From HTA.lib Require Import Base.
Open Scope list_scope.
Open Scope Z_scope.

Record edge := mkEdge { e_src : Z; e_dst : Z; e_w : Z }.

(* a path (is_path): a non-empty list of edges of the graph, each starting where the previous one ends (chain_from) *)
Fixpoint chain_from (u : Z) (p : list edge) : Prop :=
  match p with
  | [] => True
  | e :: r => e_src e = u /\ chain_from (e_dst e) r
  end.
Definition is_path (G : list edge) (p : list edge) : Prop :=
  match p with
  | [] => False
  | e :: _ => (forall x, In x p -> In x G) /\ chain_from (e_src e) p
  end.
Definition path_weight (p : list edge) : Z := sumZ (map e_w p).
Fixpoint path_end (u : Z) (p : list edge) : Z := match p with [] => u | e :: r => path_end (e_dst e) r end.
Definition path_start (p : list edge) : Z := match p with [] => 0 | e :: _ => e_src e end.

(* Along a chain a function f of the nodes grows by at least the cost c of every edge it crosses, if it does so on every
   edge of the graph.  With c the weight this bounds path weights by a potential or by time stamps; with c = 1 it makes a
   rank strictly increasing. *)
Lemma chain_potential G (f : Z -> Z) (c : edge -> Z) :
  (forall e, In e G -> f (e_src e) + c e <= f (e_dst e)) ->
  forall p u, (forall x, In x p -> In x G) -> chain_from u p -> f u + sumZ (map c p) <= f (path_end u p).
Proof.
  intro Hf. induction p as [|e r IH]; intros u Hin Hch; cbn [map path_end].
  - cbn. lia.
  - destruct Hch as [Hs Hch]. subst u. rewrite sumZ_cons. specialize (Hf e (Hin e (or_introl eq_refl))).
    specialize (IH (e_dst e) (fun x Hx => Hin x (or_intror Hx)) Hch). lia.
Qed.

Lemma path_potential G f c p : (forall e, In e G -> f (e_src e) + c e <= f (e_dst e)) -> is_path G p ->
  f (path_start p) + sumZ (map c p) <= f (path_end (path_start p) p).
Proof. intros Hf Hp. destruct p as [|e r]; [destruct Hp|]. destruct Hp as [Hin Hch]. apply (chain_potential G f c Hf _ _ Hin Hch). Qed.

(* a potential: dist u + w <= dist v on every edge, dist >= 0; then no path weighs more than dist at its end *)
Definition potential_ok (G : list edge) (dist : Z -> Z) : Prop :=
  forall e, In e G -> dist (e_src e) + e_w e <= dist (e_dst e) /\ 0 <= dist (e_src e).

Theorem path_bound G dist p : potential_ok G dist -> is_path G p ->
  path_weight p <= dist (path_end (path_start p) p).
Proof.
  intros Hpot Hp. pose proof (path_potential G dist e_w p (fun e He => proj1 (Hpot e He)) Hp) as H. fold (path_weight p) in H.
  destruct p as [|e r]; [destruct Hp|]. destruct (Hpot e (proj1 Hp e (or_introl eq_refl))) as [_ H0]. cbn [path_start] in *. lia.
Qed.

Theorem optimum_bound G dist M p : potential_ok G dist -> (forall v, dist v <= M) -> is_path G p -> path_weight p <= M.
Proof. intros Hpot HM Hp. pose proof (path_bound G dist p Hpot Hp). specialize (HM (path_end (path_start p) p)). lia. Qed.

Theorem path_le_span G (ts : Z -> Z) p :
  (forall e, In e G -> e_w e <= ts (e_dst e) - ts (e_src e)) -> is_path G p ->
  path_weight p <= ts (path_end (path_start p) p) - ts (path_start p).
Proof.
  intros Hw Hp. assert (H : forall e, In e G -> ts (e_src e) + e_w e <= ts (e_dst e)) by (intros e He; specialize (Hw e He); lia).
  apply (path_potential G ts e_w p H) in Hp. fold (path_weight p) in Hp. lia.
Qed.

Definition rank_ok (G : list edge) (rank : Z -> Z) : Prop := forall e, In e G -> rank (e_src e) < rank (e_dst e).

Theorem acyclic G rank p : rank_ok G rank -> is_path G p -> path_end (path_start p) p <> path_start p.
Proof.
  intros Hr Hp. assert (H : forall e, In e G -> rank (e_src e) + 1 <= rank (e_dst e)) by (intros e He; specialize (Hr e He); lia).
  pose proof (path_potential G rank (fun _ => 1) p H Hp) as Hup. rewrite <- length_sumZ in Hup.
  destruct p as [|e r]; [destruct Hp|]. cbn [List.length] in Hup. intro E. rewrite E in Hup. lia.
Qed.

(* The executable side.  No lemma is stated about best / dp: whatever they compute is judged by potential_okb, so a wrong
   programme (or a wrong node order handed in) makes the check fail, never a theorem. *)
Fixpoint alookup (d : list (Z * Z)) (k : Z) : Z :=
  match d with [] => 0 | (a, b) :: r => if a =? k then b else alookup r k end.

(* best value at v given the values d of the nodes before it *)
Definition best (G : list edge) (d : list (Z * Z)) (v : Z) : Z :=
  fold_left (fun acc e => if e_dst e =? v then Z.max acc (alookup d (e_src e) + e_w e) else acc) G 0.
Definition dp (G : list edge) (order : list Z) : list (Z * Z) := fold_left (fun d v => (v, best G d v) :: d) order [].

Definition potential_okb (G : list edge) (d : list (Z * Z)) : bool :=
  forallb (fun e => (alookup d (e_src e) + e_w e <=? alookup d (e_dst e)) && (0 <=? alookup d (e_src e))) G.

Theorem potential_okb_sound G d : potential_okb G d = true -> potential_ok G (alookup d).
Proof.
  unfold potential_okb, potential_ok. rewrite forallb_forall. intros H e He. specialize (H e He).
  apply andb_prop in H. lia.
Qed.

Definition rank_okb (G : list edge) (d : list (Z * Z)) : bool := forallb (fun e => alookup d (e_src e) <? alookup d (e_dst e)) G.
Theorem rank_okb_sound G d : rank_okb G d = true -> rank_ok G (alookup d).
Proof. unfold rank_okb, rank_ok. rewrite forallb_forall. intros H e He. specialize (H e He). lia. Qed.

Definition max_value (d : list (Z * Z)) : Z := maxZ 0 (0 :: map snd d).

Lemma alookup_in d v : alookup d v = 0 \/ In (alookup d v) (map snd d).
Proof.
  induction d as [|[a b] d IH]; [left; reflexivity|]. cbn [alookup map snd]. destruct (a =? v); [right; left; reflexivity|].
  destruct IH as [IH|IH]; [left; exact IH | right; right; exact IH].
Qed.

Lemma alookup_le_max d v : alookup d v <= max_value d.
Proof.
  unfold max_value. apply maxZ_ge. destruct (alookup_in d v) as [H|H]; [left; symmetry; exact H | right; exact H].
Qed.

(* a reported path given as node list: consecutive nodes joined by edges of G *)
Fixpoint edge_of (G : list edge) (u v : Z) : option edge :=
  match G with [] => None | e :: r => if (e_src e =? u) && (e_dst e =? v) then Some e else edge_of r u v end.
Fixpoint path_edges (G : list edge) (nodes : list Z) : option (list edge) :=
  match nodes with
  | u :: ((v :: _) as r) => match edge_of G u v, path_edges G r with Some e, Some p => Some (e :: p) | _, _ => None end
  | _ => Some []
  end.

Lemma edge_of_spec G u v e : edge_of G u v = Some e -> In e G /\ e_src e = u /\ e_dst e = v.
Proof.
  induction G as [|x G IH]; [discriminate|]. simpl. destruct ((e_src x =? u) && (e_dst x =? v)) eqn:E.
  - intro H. inversion H; subst. apply andb_prop in E. split; [left; reflexivity | lia].
  - intro H. destruct (IH H) as [H1 H2]. split; [right; exact H1 | exact H2].
Qed.

Lemma path_edges_cons G u v r :
  path_edges G (u :: v :: r) = match edge_of G u v, path_edges G (v :: r) with Some e, Some p => Some (e :: p) | _, _ => None end.
Proof. reflexivity. Qed.

Lemma path_edges_chain G : forall rest u p, path_edges G (u :: rest) = Some p -> (forall x, In x p -> In x G) /\ chain_from u p.
Proof.
  induction rest as [|v r IH]; intros u p H.
  - injection H as <-. split; [intros x [] | exact I].
  - rewrite path_edges_cons in H. destruct (edge_of G u v) as [e|] eqn:Ee; [|discriminate].
    destruct (path_edges G (v :: r)) as [q|] eqn:Eq; [|discriminate]. injection H as <-.
    destruct (edge_of_spec G u v e Ee) as (HeG & Hs & Hd). destruct (IH v q Eq) as [Hin Hch]. split.
    + intros x [<-|Hx]; [exact HeG | exact (Hin x Hx)].
    + split; [exact Hs | rewrite Hd; exact Hch].
Qed.

Lemma path_edges_spec G : forall nodes p, path_edges G nodes = Some p -> p <> [] ->
  is_path G p /\ path_start p = hd 0 nodes.
Proof.
  intros [|u rest] p H Hne; [injection H as <-; congruence|]. destruct (path_edges_chain G rest u p H) as [Hin Hch].
  destruct p as [|e q]; [congruence|]. destruct Hch as [Hs Hch]. split; [|exact Hs]. split; [exact Hin|]. split; [reflexivity | exact Hch].
Qed.
