(* Regular expressions: Brzozowski-derivative matcher, proved equivalent to the language semantics;
   prefix matching (Python re.match / Series.str.match). *)
From Coq Require Import List Bool String Ascii.
From HTA.lib Require Import ListExtra.
Open Scope string_scope.

Inductive re : Type :=
| Empty : re                      (* no string *)
| Eps : re                        (* "" *)
| Chr : ascii -> re
| Any : re                        (* any one character (names contain no newline) *)
| Cls : list ascii -> re          (* one character of a class *)
| Cat : re -> re -> re
| Alt : re -> re -> re
| Star : re -> re.

Definition Plus (r : re) : re := Cat r (Star r).
Definition Opt (r : re) : re := Alt Eps r.
Fixpoint Lit (s : string) : re :=
  match s with EmptyString => Eps | String c s' => Cat (Chr c) (Lit s') end.

Inductive matches : re -> string -> Prop :=
| MEps : matches Eps ""
| MChr c : matches (Chr c) (String c "")
| MAny c : matches Any (String c "")
| MCls c cs : In c cs -> matches (Cls cs) (String c "")
| MCat r1 r2 s1 s2 : matches r1 s1 -> matches r2 s2 -> matches (Cat r1 r2) (s1 ++ s2)
| MAltL r1 r2 s : matches r1 s -> matches (Alt r1 r2) s
| MAltR r1 r2 s : matches r2 s -> matches (Alt r1 r2) s
| MStar0 r : matches (Star r) ""
| MStarS r s1 s2 : matches r s1 -> matches (Star r) s2 -> matches (Star r) (s1 ++ s2).

Fixpoint nullable (r : re) : bool :=
  match r with
  | Empty | Chr _ | Any | Cls _ => false
  | Eps | Star _ => true
  | Cat a b => nullable a && nullable b
  | Alt a b => nullable a || nullable b
  end.

Definition in_cls (c : ascii) (cs : list ascii) : bool := existsb (Ascii.eqb c) cs.

Fixpoint deriv (c : ascii) (r : re) : re :=
  match r with
  | Empty | Eps => Empty
  | Chr d => if Ascii.eqb c d then Eps else Empty
  | Any => Eps
  | Cls cs => if in_cls c cs then Eps else Empty
  | Cat a b => if nullable a then Alt (Cat (deriv c a) b) (deriv c b) else Cat (deriv c a) b
  | Alt a b => Alt (deriv c a) (deriv c b)
  | Star a => Cat (deriv c a) (Star a)
  end.

Fixpoint match_full (r : re) (s : string) : bool :=
  match s with
  | EmptyString => nullable r
  | String c s' => match_full (deriv c r) s'
  end.

(* re.match: some prefix of s is in the language *)
Fixpoint match_prefix (r : re) (s : string) : bool :=
  nullable r || match s with EmptyString => false | String c s' => match_prefix (deriv c r) s' end.

Lemma append_nil_inv s1 s2 : "" = s1 ++ s2 -> s1 = "" /\ s2 = "".
Proof. destruct s1; simpl; intro H; [auto | discriminate]. Qed.

Lemma append_assoc' (a b c : string) : (a ++ b) ++ c = a ++ (b ++ c).
Proof. induction a as [|x a IH]; simpl; [reflexivity | rewrite IH; reflexivity]. Qed.

Lemma append_nil_r (s : string) : s ++ "" = s.
Proof. induction s as [|c s IH]; simpl; [reflexivity | rewrite IH; reflexivity]. Qed.

(* inversion of [matches], one lemma per constructor of [re]; for the one-character patterns and for Cat and Star
   on a string that begins with a given character, which is the form the derivative asks about *)
Lemma empty_inv s : matches Empty s <-> False.
Proof. split; [intro H; inversion H | tauto]. Qed.

Lemma eps_inv s : matches Eps s <-> s = "".
Proof. split; [intro H; inversion H; reflexivity | intros ->; constructor]. Qed.

Lemma chr_cons_inv d c s : matches (Chr d) (String c s) <-> c = d /\ s = "".
Proof. split; [intro H; inversion H; auto | intros [-> ->]; constructor]. Qed.

Lemma any_cons_inv c s : matches Any (String c s) <-> s = "".
Proof. split; [intro H; inversion H; reflexivity | intros ->; constructor]. Qed.

Lemma cls_cons_inv cs c s : matches (Cls cs) (String c s) <-> In c cs /\ s = "".
Proof. split; [intro H; inversion H; auto | intros [H ->]; constructor; exact H]. Qed.

Lemma cat_inv r1 r2 s : matches (Cat r1 r2) s <-> exists s1 s2, s = s1 ++ s2 /\ matches r1 s1 /\ matches r2 s2.
Proof. split; [intro H; inversion H; eauto | intros (s1 & s2 & -> & H1 & H2); constructor; assumption]. Qed.

Lemma alt_inv r1 r2 s : matches (Alt r1 r2) s <-> matches r1 s \/ matches r2 s.
Proof. split; [intro H; inversion H; auto | intros [H|H]; [apply MAltL | apply MAltR]; exact H]. Qed.

(* the first character belongs to the match of r1, or r1 matches "" and the character belongs to the match of r2 *)
Lemma cat_cons_inv r1 r2 c s : matches (Cat r1 r2) (String c s) <->
  (exists s1 s2, s = s1 ++ s2 /\ matches r1 (String c s1) /\ matches r2 s2) \/ (matches r1 "" /\ matches r2 (String c s)).
Proof.
  rewrite cat_inv. split.
  - intros (s1 & s2 & E & H1 & H2). destruct s1 as [|d s1]; simpl in E.
    + right. subst. auto.
    + injection E as -> ->. left. eauto.
  - intros [(s1 & s2 & -> & H1 & H2) | [H1 H2]].
    + exists (String c s1), s2. auto.
    + exists "", (String c s). auto.
Qed.

(* a non-empty match of Star r starts with a non-empty match of r *)
Lemma star_cons_inv r c s : matches (Star r) (String c s) <->
  exists s1 s2, s = s1 ++ s2 /\ matches r (String c s1) /\ matches (Star r) s2.
Proof.
  split.
  - intro H. remember (Star r) as R eqn:ER. remember (String c s) as S eqn:ES.
    induction H as [| | | | | | | |r' s1 s2 H1 _ H2 IH2]; try discriminate.
    injection ER as ->. destruct s1 as [|d s1]; simpl in ES.
    + apply IH2; [reflexivity | exact ES].
    + injection ES as -> <-. eauto.
  - intros (s1 & s2 & -> & H1 & H2). exact (MStarS r (String c s1) s2 H1 H2).
Qed.

Lemma nullable_spec r : nullable r = true <-> matches r "".
Proof.
  induction r as [| | c | | cs | a IHa b IHb | a IHa b IHb | a IHa]; simpl.
  1, 3-5: split; [discriminate | intro H; inversion H].
  - split; [constructor | reflexivity].
  - rewrite andb_true_iff, IHa, IHb, cat_inv. split.
    + intros [H1 H2]. exists "", "". auto.
    + intros (s1 & s2 & E & H1 & H2). apply append_nil_inv in E. destruct E as [-> ->]. auto.
  - rewrite orb_true_iff, IHa, IHb, alt_inv. reflexivity.
  - split; [constructor | reflexivity].
Qed.

Lemma in_cls_spec c cs : in_cls c cs = true <-> In c cs.
Proof. apply (existsb_eqb_In Ascii.eqb Ascii.eqb_eq). Qed.

Lemma deriv_spec r : forall c s, matches (deriv c r) s <-> matches r (String c s).
Proof.
  induction r as [| | d | | cs | a IHa b IHb | a IHa b IHb | a IHa]; intros c s; simpl.
  - rewrite !empty_inv. reflexivity.
  - rewrite empty_inv, eps_inv. split; [tauto | discriminate].
  - rewrite chr_cons_inv. destruct (Ascii.eqb_spec c d); [rewrite eps_inv | rewrite empty_inv]; tauto.
  - rewrite eps_inv, any_cons_inv. reflexivity.
  - rewrite cls_cons_inv, <- in_cls_spec. destruct (in_cls c cs); [rewrite eps_inv | rewrite empty_inv]; intuition discriminate.
  - rewrite cat_cons_inv, <- nullable_spec. destruct (nullable a).
    + rewrite alt_inv, cat_inv, IHb. setoid_rewrite IHa. tauto.
    + rewrite cat_inv. setoid_rewrite IHa. intuition discriminate.
  - rewrite !alt_inv, IHa, IHb. reflexivity.
  - rewrite cat_inv, star_cons_inv. setoid_rewrite IHa. reflexivity.
Qed.

Theorem match_full_spec : forall s r, match_full r s = true <-> matches r s.
Proof.
  induction s as [|c s IH]; intro r; simpl.
  - apply nullable_spec.
  - rewrite IH. apply deriv_spec.
Qed.

Theorem match_prefix_spec : forall s r,
  match_prefix r s = true <-> exists s1 s2, s = s1 ++ s2 /\ matches r s1.
Proof.
  induction s as [|c s IH]; intro r; simpl.
  - rewrite orb_false_r, nullable_spec. split.
    + intro H. exists "", "". split; [reflexivity | exact H].
    + intros [s1 [s2 [E H]]]. apply append_nil_inv in E. destruct E as [-> _]. exact H.
  - rewrite orb_true_iff, IH, nullable_spec. split.
    + intros [H | [s1 [s2 [E H]]]].
      * exists "", (String c s). split; [reflexivity | exact H].
      * subst. exists (String c s1), s2. split; [reflexivity | apply deriv_spec; exact H].
    + intros [s1 [s2 [E H]]]. destruct s1 as [|d s1]; simpl in E.
      * left. exact H.
      * inversion E; subst. right. exists s1, s2. split; [reflexivity | apply deriv_spec; exact H].
Qed.
