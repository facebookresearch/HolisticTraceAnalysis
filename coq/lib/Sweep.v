(* Boundary-row sweeps: rows (time, delta) sorted by time, running sum of the deltas, the time to the next row credited to the
   running value.  Used by the comm/comp overlap (C07), by the kernel-type table (C05) and, for the level of paired rows, by the
   counters (C14).  The main theorem holds for EVERY time-sorted permutation of the rows (pandas' sort_values is unstable),
   because the rows inside one instant get duration 0 except the last. *)
From Coq Require Import Permutation Sorted.
From HTA.lib Require Import Base Cells Intervals.
Open Scope Z_scope.

Notation row := (Z * Z)%type.   (* (time, delta) *)

Definition sorted_time (l : list row) : Prop := StronglySorted (fun a b => fst a <= fst b) l.

(* level of the step function at cell u: sum of the deltas of all rows with time <= u *)
Definition level (rows : list row) (u : Z) : Z :=
  sumZ (map (fun r => if fst r <=? u then snd r else 0) rows).

(* cumsum; rows whose running value satisfies sel are credited the time to the NEXT row
   (status_df.shift(-1), last row dropped) *)
Fixpoint sweep (sel : Z -> bool) (acc : Z) (rows : list row) : Z :=
  match rows with
  | [] => 0
  | r :: rest =>
      match rest with
      | [] => 0
      | r' :: _ => (if sel (acc + snd r) then fst r' - fst r else 0) + sweep sel (acc + snd r) rest
      end
  end.

Lemma sweep_step sel acc r r' rest :
  sweep sel acc (r :: r' :: rest) = (if sel (acc + snd r) then fst r' - fst r else 0) + sweep sel (acc + snd r) (r' :: rest).
Proof. reflexivity. Qed.

Lemma level_cons r rows u : level (r :: rows) u = (if fst r <=? u then snd r else 0) + level rows u.
Proof. reflexivity. Qed.

Lemma level_app r1 r2 u : level (r1 ++ r2) u = level r1 u + level r2 u.
Proof. unfold level. rewrite map_app, sumZ_app. reflexivity. Qed.

Lemma level_perm rows rows' u : Permutation rows rows' -> level rows u = level rows' u.
Proof. intro H. apply sumZ_perm, Permutation_map, H. Qed.

Lemma level_before rows u : (forall r, In r rows -> u < fst r) -> level rows u = 0.
Proof. intro H. apply sumZ_zero. intros r Hr. apply H in Hr. destruct (Z.leb_spec (fst r) u); lia. Qed.

Lemma level_after rows u : (forall r, In r rows -> fst r <= u) -> level rows u = sumZ (map snd rows).
Proof.
  intro H. unfold level. f_equal. apply map_ext_in. intros r Hr. apply H in Hr.
  destruct (Z.leb_spec (fst r) u); lia.
Qed.

(* From the first row up to any hi that no row exceeds: a row is credited the time to the next one, the measure counts the cells
   between them, where the level is the running value.  Nothing is counted after the last row because the value reached there,
   acc plus all deltas, is one that sel rejects.  Stated for any running value acc, which the induction needs.
   (sorted_head_min is Intervals' lemma: rows and intervals are the same pairs, sorted_time the same order as sorted_ts.) *)
Lemma sweep_cells sel hi : forall rest r acc, sorted_time (r :: rest) -> (forall x, In x (r :: rest) -> fst x <= hi) ->
  sel (acc + sumZ (map snd (r :: rest))) = false ->
  sweep sel acc (r :: rest) = cells (fun u => sel (acc + level (r :: rest) u)) (fst r) hi.
Proof.
  induction rest as [|r' rest IH]; intros r acc Hs Hhi Hend.
  - symmetry. apply cells_false. intros u Hu. rewrite level_after; [exact Hend | intros x [<-|[]]; lia].
  - apply StronglySorted_inv in Hs. destruct Hs as [Hs Hr]. rewrite Forall_forall in Hr.
    pose proof (Hr r' (or_introl eq_refl)) as Hrr'. pose proof (Hhi r' (or_intror (or_introl eq_refl))) as Hr'hi.
    rewrite sweep_step, (IH r' (acc + snd r) Hs (fun x Hx => Hhi x (or_intror Hx))) by (rewrite <- Z.add_assoc; exact Hend).
    rewrite (cells_split _ (fst r) (fst r') hi) by lia. f_equal.
    + (* between r and r' the level is the delta of r *)
      rewrite (cells_const (sel (acc + snd r))); [destruct (sel (acc + snd r)); lia|].
      intros u Hu. rewrite level_cons, level_before by (intros x Hx; pose proof (sorted_head_min r' rest Hs x Hx); lia).
      destruct (fst r <=? u) eqn:E; [f_equal; lia | lia].
    + apply cells_ext. intros u Hu. rewrite (level_cons r). destruct (fst r <=? u) eqn:E; [f_equal; lia | lia].
Qed.

(* the general form of sweep_exact: from any running value acc, sel rejecting the value before the first row and the value after
   the last (with acc = 0 and cancelling deltas both are 0) *)
Theorem sweep_window sel acc rows rows' lo hi :
  sel acc = false -> sel (acc + sumZ (map snd rows)) = false ->
  Permutation rows rows' -> sorted_time rows' ->
  (forall r, In r rows -> lo <= fst r <= hi) ->
  sweep sel acc rows' = cells (fun u => sel (acc + level rows u)) lo hi.
Proof.
  intros H0 Hend Hp Hs Hb. rewrite (cells_ext _ (fun u => sel (acc + level rows' u))) by (intros u _; do 2 f_equal; apply level_perm, Hp).
  rewrite (sumZ_perm _ _ (Permutation_map snd Hp)) in Hend.
  assert (Hin : forall x, In x rows' -> lo <= fst x <= hi) by (intros x Hx; apply Hb, (Permutation_in _ (Permutation_sym Hp)), Hx).
  destruct rows' as [|r rest]; [symmetry; apply cells_false; intros u _; exact Hend|].
  (* before the first row the level is 0; from there on sweep_cells *)
  rewrite (cells_split _ lo (fst r) hi) by (apply Hin; left; reflexivity).
  rewrite (cells_false _ lo (fst r)), (sweep_cells sel hi); [reflexivity | exact Hs | intros x Hx; apply Hin, Hx | exact Hend |].
  intros u Hu. rewrite level_before, Z.add_0_r; [exact H0|]. intros x Hx. pose proof (sorted_head_min r rest Hs x Hx). lia.
Qed.

Theorem sweep_exact sel rows rows' lo hi :
  sel 0 = false -> sumZ (map snd rows) = 0 ->
  Permutation rows rows' -> sorted_time rows' ->
  (forall r, In r rows -> lo <= fst r <= hi) ->
  sweep sel 0 rows' = cells (fun u => sel (level rows u)) lo hi.
Proof. intros H0 Hsum. apply (sweep_window sel 0); [exact H0 | rewrite Hsum; exact H0]. Qed.

(* boundary rows of weighted spans: (a p, + v p) and (b p, - v p) *)
Section PairedRows.
  Context {A : Type} (a b v : A -> Z).
  Definition paired_rows (P : list A) : list row := map (fun p => (a p, v p)) P ++ map (fun p => (b p, - v p)) P.

  Lemma paired_rows_sum P : sumZ (map snd (paired_rows P)) = 0.
  Proof.
    unfold paired_rows. rewrite map_app, sumZ_app, !map_map, <- sumZ_map_add.
    apply sumZ_zero. intros p _. cbn [snd]. lia.
  Qed.

  Lemma level_paired_rows P u :
    level (paired_rows P) u = sumZ (map (fun p => (if a p <=? u then v p else 0) - (if b p <=? u then v p else 0)) P).
  Proof.
    unfold paired_rows. rewrite level_app. unfold level. rewrite !map_map, <- sumZ_map_add.
    f_equal. apply map_ext. intro p. cbn [fst snd]. destruct (b p <=? u); lia.
  Qed.

  Lemma paired_rows_bounds P lo hi : (forall p, In p P -> lo <= a p <= hi /\ lo <= b p <= hi) ->
    forall r, In r (paired_rows P) -> lo <= fst r <= hi.
  Proof.
    intros H r Hr. apply in_app_or in Hr.
    destruct Hr as [Hr|Hr]; apply in_map_iff in Hr; destruct Hr as [p [<- Hp]]; apply H, Hp.
  Qed.
End PairedRows.

(* boundary rows of an interval list with weight v: (ts, +v) and (end, -v) *)
Definition rows_of (v : Z) (l : list itv) : list row :=
  map (fun i => (fst i, v)) l ++ map (fun i => (snd i, - v)) l.

Lemma rows_of_sum v l : sumZ (map snd (rows_of v l)) = 0.
Proof. apply (paired_rows_sum fst snd (fun _ => v)). Qed.

Lemma level_rows_of v l u : wf_itvs l -> level (rows_of v l) u = v * cover_count l u.
Proof.
  intro Hw. change (rows_of v l) with (paired_rows fst snd (fun _ => v) l). rewrite level_paired_rows.
  unfold cover_count. rewrite <- sumZ_scale, map_map. f_equal. apply map_ext_in. intros i Hi.
  unfold wf_itvs in Hw. rewrite Forall_forall in Hw. apply Hw in Hi. unfold inb, b2z.
  destruct (Z.leb_spec (fst i) u), (Z.leb_spec (snd i) u), (Z.ltb_spec u (snd i)); cbn [andb]; lia.
Qed.

Lemma rows_of_bounds v l lo hi :
  (forall i, In i l -> lo <= fst i /\ snd i <= hi) -> wf_itvs l ->
  forall r, In r (rows_of v l) -> lo <= fst r <= hi.
Proof.
  intros Hb Hw. apply (paired_rows_bounds fst snd (fun _ => v)). intros i Hi.
  unfold wf_itvs in Hw. rewrite Forall_forall in Hw. specialize (Hb i Hi). specialize (Hw i Hi). lia.
Qed.

(* separated (pairwise disjoint, gap > 0) lists cover each cell at most once *)
Lemma separated_cover_count l t : separated l -> cover_count l t = b2z (covered l t).
Proof.
  induction l as [|i l IH]; intro Hs; [reflexivity|].
  unfold cover_count in *. simpl map. simpl sumZ. rewrite covered_cons.
  rewrite IH by (eapply separated_tail; eauto).
  destruct (inb (fst i) (snd i) t) eqn:E; simpl; [|lia].
  rewrite (separated_disjoint i l t Hs E). reflexivity.
Qed.

(* Rows that draw a step function.  draws rows f lo hi: the running sum over rows is f, the deltas cancel and all times lie in the window [lo, hi];
   this is what sweep_exact asks of its rows, and it is kept by concatenation. *)
Definition draws (rows : list row) (f : Z -> Z) (lo hi : Z) : Prop :=
  (forall t, level rows t = f t) /\ sumZ (map snd rows) = 0 /\ forall r, In r rows -> lo <= fst r <= hi.

Lemma draws_nil lo hi : draws [] (fun _ => 0) lo hi.
Proof. split; [|split]; [reflexivity | reflexivity | intros r []]. Qed.

Lemma draws_app R1 R2 f1 f2 lo hi :
  draws R1 f1 lo hi -> draws R2 f2 lo hi -> draws (R1 ++ R2) (fun t => f1 t + f2 t) lo hi.
Proof.
  intros (L1 & S1 & B1) (L2 & S2 & B2). split; [|split].
  - intro t. rewrite level_app, L1, L2. reflexivity.
  - rewrite map_app, sumZ_app, S1, S2. reflexivity.
  - intros r Hr. apply in_app_or in Hr. destruct Hr as [Hr|Hr]; [apply B1 | apply B2]; exact Hr.
Qed.

Lemma draws_rows_of v l lo hi :
  separated l -> (forall i, In i l -> lo <= fst i /\ snd i <= hi) ->
  draws (rows_of v l) (fun t => v * b2z (covered l t)) lo hi.
Proof.
  intros Hs Hb. pose proof (separated_wf l Hs) as Hw. split; [|split].
  - intro t. rewrite level_rows_of, separated_cover_count by assumption. reflexivity.
  - apply rows_of_sum.
  - apply rows_of_bounds; assumption.
Qed.

Lemma draws_merged v l l' lo hi :
  wf_itvs l -> Permutation l l' -> sorted_ts l' -> (forall i, In i l -> lo <= fst i /\ snd i <= hi) ->
  draws (rows_of v (merge_sorted l')) (fun t => v * b2z (covered l t)) lo hi.
Proof.
  intros Hw Hp Hs Hb. destruct (merge_sorted_any l l' lo hi Hw Hp Hs Hb) as (Hsep & Hin & Hcov).
  destruct (draws_rows_of v (merge_sorted l') lo hi Hsep Hin) as (L & S & B).
  split; [|split; assumption]. intro t. rewrite L, Hcov. reflexivity.
Qed.

Lemma sweep_draws sel rows rows' f lo hi :
  draws rows f lo hi -> sel 0 = false -> Permutation rows rows' -> sorted_time rows' ->
  sweep sel 0 rows' = cells (fun t => sel (f t)) lo hi.
Proof.
  intros (L & S & B) H0 Hp Hs. rewrite (sweep_exact sel rows rows' lo hi) by assumption.
  apply cells_ext. intros t _. rewrite L. reflexivity.
Qed.
