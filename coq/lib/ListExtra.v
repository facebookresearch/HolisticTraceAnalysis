(* List lemmas the models share: the 8.16 standard library lacks them, or has them only for a fixed function where the
   models each define their own (insertion sort, de-duplication). *)
From Coq Require Import List Permutation Sorted Bool Lia.
Import ListNotations.

Lemma NoDup_app_intro {A} (l1 l2 : list A) :
  NoDup l1 -> NoDup l2 -> (forall x, In x l1 -> ~ In x l2) -> NoDup (l1 ++ l2).
Proof.
  intros H1 H2 Hd. induction H1 as [|x l1 Hx Hnd IH]; simpl; [exact H2|].
  constructor.
  - intro Hin. apply in_app_or in Hin. destruct Hin as [Hin|Hin]; [auto|].
    apply (Hd x); [left; reflexivity | exact Hin].
  - apply IH. intros y Hy. apply Hd. right. exact Hy.
Qed.

Lemma NoDup_map_inj {A B} (f : A -> B) (l : list A) :
  (forall x y, In x l -> In y l -> f x = f y -> x = y) -> NoDup l -> NoDup (map f l).
Proof.
  intros Hinj Hnd. induction Hnd as [|x l Hx Hnd IH]; simpl; [constructor|].
  constructor.
  - intro Hin. apply in_map_iff in Hin. destruct Hin as [y [Hfy Hy]].
    assert (y = x) by (apply Hinj; [right; exact Hy | left; reflexivity | exact Hfy]).
    subst. auto.
  - apply IH. intros a b Ha Hb. apply Hinj; right; assumption.
Qed.

(* the converse: distinct images, equal arguments *)
Lemma NoDup_map_eq {A B} (f : A -> B) l a b : NoDup (map f l) -> In a l -> In b l -> f a = f b -> a = b.
Proof.
  induction l as [|x r IH]; cbn [map]; intros H Ha Hb Hab; [destruct Ha|].
  inversion H as [|? ? Hx Hr]; subst. destruct Ha as [Ha|Ha], Hb as [Hb|Hb]; subst; auto.
  - exfalso. apply Hx. rewrite Hab. apply in_map. exact Hb.
  - exfalso. apply Hx. rewrite <- Hab. apply in_map. exact Ha.
Qed.

Lemma NoDup_map_filter {A B} (f : A -> B) (p : A -> bool) l : NoDup (map f l) -> NoDup (map f (filter p l)).
Proof.
  intro H. apply NoDup_map_inj; [|apply NoDup_filter, (NoDup_map_inv f), H].
  intros x y Hx Hy. apply filter_In in Hx, Hy. apply (NoDup_map_eq f l); tauto.
Qed.

Lemma NoDup_flat_map_pairs {A B} (f : A -> list B) (l : list A) :
  NoDup l -> (forall a, In a l -> NoDup (f a)) ->
  NoDup (flat_map (fun a => map (fun b => (a, b)) (f a)) l).
Proof.
  intros Hnd Hf. induction Hnd as [|a l Ha Hnd IH]; simpl; [constructor|].
  apply NoDup_app_intro.
  - apply NoDup_map_inj; [|apply Hf; left; reflexivity].
    intros x y _ _ H. inversion H. reflexivity.
  - apply IH. intros b Hb. apply Hf. right. exact Hb.
  - intros [a' b'] Hin1 Hin2. apply in_map_iff in Hin1. destruct Hin1 as [b0 [Heq _]].
    inversion Heq; subst a' b'. apply in_flat_map in Hin2. destruct Hin2 as [a1 [Ha1 Hin2]].
    apply in_map_iff in Hin2. destruct Hin2 as [b1 [Heq1 _]]. inversion Heq1; subst. auto.
Qed.

Lemma filter_filter {A} (f g : A -> bool) l :
  filter f (filter g l) = filter (fun x => andb (g x) (f x)) l.
Proof.
  induction l as [|x l IH]; simpl; [reflexivity|].
  destruct (g x); simpl; [destruct (f x); rewrite IH; reflexivity | exact IH].
Qed.

Lemma filter_comm {A} (p q : A -> bool) l : filter p (filter q l) = filter q (filter p l).
Proof. rewrite !filter_filter. apply filter_ext. intro x. apply andb_comm. Qed.

Lemma filter_idem {A} (p : A -> bool) l : filter p (filter p l) = filter p l.
Proof. rewrite filter_filter. apply filter_ext. intro x. destruct (p x); reflexivity. Qed.

Lemma filter_map_swap {A B} (f : A -> B) (p : B -> bool) (l : list A) : filter p (map f l) = map f (filter (fun x => p (f x)) l).
Proof.
  induction l as [|x l IH]; cbn [map filter]; [reflexivity|].
  destruct (p (f x)); cbn [map]; rewrite IH; reflexivity.
Qed.

(* the form to apply when the selection on the right is given *)
Lemma filter_map_comm {A B} (f : A -> B) (p : B -> bool) (q : A -> bool) (l : list A) :
  (forall x, p (f x) = q x) -> filter p (map f l) = map f (filter q l).
Proof. intro H. rewrite filter_map_swap. f_equal. apply filter_ext, H. Qed.

Lemma flat_map_filter_out {A B} (p : A -> bool) (f : A -> list B) l :
  flat_map f (filter p l) = flat_map (fun a => if p a then f a else []) l.
Proof.
  induction l as [|a l IH]; simpl; [reflexivity|].
  destruct (p a); simpl; rewrite IH; reflexivity.
Qed.

Lemma flat_map_map {A B C} (f : A -> B) (g : B -> list C) (l : list A) :
  flat_map g (map f l) = flat_map (fun x => g (f x)) l.
Proof. induction l as [|x l IH]; cbn [map flat_map]; [reflexivity|]. rewrite IH. reflexivity. Qed.

Lemma map_flat_map {A B C} (g : B -> C) (f : A -> list B) l : map g (flat_map f l) = flat_map (fun a => map g (f a)) l.
Proof. induction l as [|a l IH]; [reflexivity|]. cbn [flat_map]. rewrite map_app, IH. reflexivity. Qed.

Lemma last_map {A B} (f : A -> B) (l : list A) (d : A) : last (map f l) (f d) = f (last l d).
Proof. induction l as [|x r IH]; [reflexivity|]. destruct r as [|y r']; [reflexivity|]. exact IH. Qed.

(* the default only matters for the empty list *)
Lemma last_cons {A} (x : A) l d : last (x :: l) d = last l x.
Proof.
  revert x d. induction l as [|y l IH]; intros x d; [reflexivity|].
  change (last (x :: y :: l) d) with (last (y :: l) d). rewrite !IH. reflexivity.
Qed.

Lemma existsb_map {A B} (f : A -> B) (p : B -> bool) (l : list A) : existsb p (map f l) = existsb (fun x => p (f x)) l.
Proof. induction l as [|x r IH]; cbn [map existsb]; [reflexivity|]. rewrite IH. reflexivity. Qed.

Lemma forallb_map {A B} (f : A -> B) (p : B -> bool) (l : list A) : forallb p (map f l) = forallb (fun x => p (f x)) l.
Proof. induction l as [|x r IH]; cbn [map forallb]; [reflexivity|]. rewrite IH. reflexivity. Qed.

Lemma existsb_ext {A} (p q : A -> bool) (l : list A) : (forall x, p x = q x) -> existsb p l = existsb q l.
Proof. intro H. induction l as [|x r IH]; cbn [existsb]; [reflexivity|]. rewrite H, IH. reflexivity. Qed.

Lemma find_map {A} (f : A -> A) (p : A -> bool) l :
  (forall x, p (f x) = p x) -> find p (map f l) = option_map f (find p l).
Proof.
  intro H. induction l as [|x r IH]; cbn [map find]; [reflexivity|].
  rewrite H. destruct (p x); [reflexivity | exact IH].
Qed.

Lemma filter_true {A} (l : list A) : filter (fun _ => true) l = l.
Proof. induction l as [|x l IH]; cbn [filter]; [reflexivity | rewrite IH; reflexivity]. Qed.

Lemma in_flat_map_pairs {A B} (f : A -> list B) (l : list A) a b :
  In (a, b) (flat_map (fun a => map (fun b => (a, b)) (f a)) l) <-> In a l /\ In b (f a).
Proof.
  rewrite in_flat_map. split.
  - intros [a' [Ha H]]. apply in_map_iff in H. destruct H as [b' [[= -> ->] Hb]]. tauto.
  - intros [Ha Hb]. exists a. split; [exact Ha | apply in_map; exact Hb].
Qed.

Lemma nth_error_snoc {A} (l : list A) x n y :
  nth_error (l ++ [x]) n = Some y <-> nth_error l n = Some y \/ (n = List.length l /\ x = y).
Proof.
  revert n. induction l as [|a l IH]; intro n; destruct n as [|n]; cbn [app nth_error List.length].
  - split; [intro H; injection H as <-; auto | intros [H|[_ <-]]; [discriminate | reflexivity]].
  - destruct n; split; try discriminate; intros [H|[H _]]; discriminate.
  - split; [auto | intros [H|[H _]]; [exact H | discriminate]].
  - rewrite IH. split; (intros [H|[H E]]; [left; exact H | right; split; [lia | exact E]]).
Qed.

Lemma nth_Forall {A} (P : A -> Prop) n l d : Forall P l -> P d -> P (nth n l d).
Proof.
  intros Hl Hd. destruct (nth_in_or_default n l d) as [H| ->]; [|exact Hd]. rewrite Forall_forall in Hl. apply Hl, H.
Qed.

Lemma flat_map_filter_empty {A B} (f : A -> list B) (p : A -> bool) l :
  (forall x, In x l -> p x = false -> f x = []) -> flat_map f l = flat_map f (filter p l).
Proof.
  induction l as [|a l IH]; intro H; [reflexivity|]. cbn [flat_map filter].
  rewrite IH by (intros x Hx; apply H; right; exact Hx).
  destruct (p a) eqn:E; [reflexivity|]. rewrite (H a (or_introl eq_refl) E). reflexivity.
Qed.

Lemma existsb_eqb_In {A} (eqb : A -> A -> bool) (eqb_eq : forall a b, eqb a b = true <-> a = b) x l :
  existsb (eqb x) l = true <-> In x l.
Proof.
  rewrite existsb_exists. split.
  - intros [y [Hy E]]. apply eqb_eq in E. subst. exact Hy.
  - intro H. exists x. split; [exact H | apply eqb_eq; reflexivity].
Qed.

Lemma fold_left_inv {A B} (P : A -> Prop) (f : A -> B -> A) l :
  (forall a b, P a -> P (f a b)) -> forall a, P a -> P (fold_left f l a).
Proof. intro H. induction l as [|b l IH]; intros a Ha; [exact Ha|]. apply IH, H, Ha. Qed.

(* a fold that overwrites its value at every element satisfying p keeps the last such element: the first one found from the end *)
Lemma fold_left_last {A B} (p : A -> bool) (g : A -> B) l d :
  fold_left (fun acc x => if p x then g x else acc) l d = match find p (rev l) with Some x => g x | None => d end.
Proof.
  induction l as [|x l IH] using rev_ind; [reflexivity|].
  rewrite fold_left_app, rev_unit. cbn [fold_left find]. destruct (p x); [reflexivity | exact IH].
Qed.

Lemma StronglySorted_impl {A} (R S : A -> A -> Prop) l :
  (forall x y, R x y -> S x y) -> StronglySorted R l -> StronglySorted S l.
Proof.
  intro H. induction 1 as [|a l _ IH Hall]; constructor; [exact IH|].
  eapply Forall_impl; [apply H | exact Hall].
Qed.

Lemma StronglySorted_map {A B} (R : B -> B -> Prop) (f : A -> B) l :
  StronglySorted R (map f l) <-> StronglySorted (fun x y => R (f x) (f y)) l.
Proof.
  induction l as [|x l IH]; cbn [map]; [split; constructor|].
  split; intro H; apply StronglySorted_inv in H; destruct H as [Hs Hall]; constructor;
    try (apply IH; exact Hs); apply Forall_map; exact Hall.
Qed.

Lemma StronglySorted_split {A} (R : A -> A -> Prop) pre x post : StronglySorted R (pre ++ x :: post) ->
  (forall y, In y pre -> R y x) /\ (forall y, In y post -> R x y).
Proof.
  induction pre as [|a pre IH]; cbn [app]; intro H; apply StronglySorted_inv in H; destruct H as [Hs Hall]; rewrite Forall_forall in Hall.
  - split; [intros y [] | exact Hall].
  - destruct (IH Hs) as [Hpre Hpost]. split; [|exact Hpost]. intros y [<-|Hy]; [apply Hall, in_elt | apply Hpre, Hy].
Qed.

Lemma ForallOrdPairs_NoDup {A} (C : A -> A -> Prop) l :
  NoDup l -> (forall x y, In x l -> In y l -> x <> y -> C x y) -> ForallOrdPairs C l.
Proof.
  induction 1 as [|a l Ha Hnd IH]; intro H; constructor.
  - rewrite Forall_forall. intros y Hy. apply H; [left; reflexivity | right; exact Hy | intro E; subst; contradiction].
  - apply IH. intros x y Hx Hy. apply H; right; assumption.
Qed.

(* Insertion sort by a boolean comparison.  Every model has its own sort (the code sorts rows of its own shape by its own key); what they share is that
   [ins] satisfies the two equations below, which hold by computation for each of them. *)
Definition is_insert {A} (lt : A -> A -> bool) (ins : A -> list A -> list A) : Prop :=
  (forall x, ins x [] = [x]) /\
  (forall x y r, ins x (y :: r) = if lt x y then x :: y :: r else y :: ins x r).

Section InsertionSort.
  Context {A : Type} {lt : A -> A -> bool} {ins : A -> list A -> list A} (Hins : is_insert lt ins).
  Local Notation isort := (fold_right ins []).

  Lemma insert_perm x l : Permutation (x :: l) (ins x l).
  Proof.
    destruct Hins as [Hn Hc]. induction l as [|y r IH]; [rewrite Hn; apply Permutation_refl|].
    rewrite Hc. destruct (lt x y); [apply Permutation_refl|].
    eapply perm_trans; [apply perm_swap | apply perm_skip; exact IH].
  Qed.

  Lemma isort_perm l : Permutation l (isort l).
  Proof.
    induction l as [|x l IH]; cbn [fold_right]; [constructor|].
    eapply perm_trans; [apply perm_skip; exact IH | apply insert_perm].
  Qed.

  Lemma isort_In x l : In x (isort l) <-> In x l.
  Proof. split; apply Permutation_in; [apply Permutation_sym|]; apply isort_perm. Qed.

  (* sorted for any transitive R that the comparison decides on the pairs it is asked about: an element is only ever
     compared with elements that come later in the input *)
  Lemma isort_sorted (R : A -> A -> Prop) l : (forall x y z, R x y -> R y z -> R x z) ->
    ForallOrdPairs (fun x y => if lt x y then R x y else R y x) l -> StronglySorted R (isort l).
  Proof.
    intros Htr. destruct Hins as [Hn Hc]. induction 1 as [|x l Hx _ Hsorted]; cbn [fold_right]; [constructor|].
    assert (Hx' : forall y, In y (isort l) -> if lt x y then R x y else R y x).
    { intros y Hy. rewrite Forall_forall in Hx. apply Hx, isort_In, Hy. }
    (* inserting x into the sorted tail keeps it sorted: by induction on that sortedness *)
    clear Hx. induction Hsorted as [|y r Hs IHr Hall]; [rewrite Hn; repeat constructor|].
    rewrite Hc. pose proof (Hx' y (or_introl eq_refl)) as Hxy. rewrite Forall_forall in Hall.
    destruct (lt x y).
    - constructor; [constructor; [exact Hs | rewrite Forall_forall; exact Hall]|].
      constructor; [exact Hxy|]. rewrite Forall_forall. intros z Hz. exact (Htr _ _ _ Hxy (Hall z Hz)).
    - constructor; [apply IHr; intros z Hz; apply Hx'; right; exact Hz|].
      rewrite Forall_forall. intros z Hz. apply (Permutation_in _ (Permutation_sym (insert_perm x r))) in Hz.
      destruct Hz as [Hz|Hz]; [subst; exact Hxy | apply Hall, Hz].
  Qed.

  Lemma isort_sorted_total (R : A -> A -> Prop) l : (forall x y z, R x y -> R y z -> R x z) ->
    (forall x y, if lt x y then R x y else R y x) -> StronglySorted R (isort l).
  Proof. intros Htr H. apply isort_sorted; [exact Htr|]. apply ForallPairs_ForallOrdPairs. intros x y _ _. apply H. Qed.

  Lemma isort_map (f : A -> A) l : (forall x y, lt (f x) (f y) = lt x y) -> isort (map f l) = map f (isort l).
  Proof.
    intro Hf. destruct Hins as [Hn Hc]. induction l as [|x l IH]; [reflexivity|]. cbn [map fold_right]. rewrite IH. clear IH.
    induction (isort l) as [|y r IHr]; cbn [map]; [rewrite !Hn; reflexivity|].
    rewrite !Hc, Hf. destruct (lt x y); cbn [map]; [reflexivity|]. rewrite IHr. reflexivity.
  Qed.
End InsertionSort.

(* de-duplication that keeps the LAST of equal elements *)
Definition is_dedup {A} (eqb : A -> A -> bool) (dd : list A -> list A) : Prop :=
  dd [] = [] /\ forall x r, dd (x :: r) = if existsb (eqb x) r then dd r else x :: dd r.

Section Dedup.
  Context {A : Type} {eqb : A -> A -> bool} {dd : list A -> list A}.
  Hypothesis eqb_eq : forall a b, eqb a b = true <-> a = b.
  Hypothesis Hdd : is_dedup eqb dd.

  Lemma dedup_In l x : In x (dd l) <-> In x l.
  Proof.
    destruct Hdd as [Hn Hc]. induction l as [|y l IH]; [rewrite Hn; tauto|]. rewrite Hc.
    destruct (existsb (eqb y) l) eqn:E; cbn [In]; rewrite IH; [|tauto].
    apply (existsb_eqb_In eqb eqb_eq) in E. split; [auto | intros [H|H]; [subst; exact E | exact H]].
  Qed.

  Lemma dedup_NoDup l : NoDup (dd l).
  Proof.
    destruct Hdd as [Hn Hc]. induction l as [|y l IH]; [rewrite Hn; constructor|]. rewrite Hc.
    destruct (existsb (eqb y) l) eqn:E; [exact IH|]. constructor; [|exact IH].
    rewrite dedup_In, <- (existsb_eqb_In eqb eqb_eq), E. discriminate.
  Qed.
End Dedup.

(* subsequence: order and contents preserved *)
Inductive sublist {A} : list A -> list A -> Prop :=
| sub_nil : sublist [] []
| sub_skip x l1 l2 : sublist l1 l2 -> sublist l1 (x :: l2)
| sub_take x l1 l2 : sublist l1 l2 -> sublist (x :: l1) (x :: l2).

Lemma sublist_refl {A} (l : list A) : sublist l l.
Proof. induction l; constructor; assumption. Qed.

Lemma sublist_trans {A} (l1 l2 l3 : list A) : sublist l1 l2 -> sublist l2 l3 -> sublist l1 l3.
Proof.
  intros H12 H23. revert l1 H12. induction H23 as [|x l2 l3 H IH|x l2 l3 H IH]; intros l1 H12.
  - exact H12.
  - constructor. apply IH. exact H12.
  - inversion H12; subst; constructor; apply IH; assumption.
Qed.

Lemma filter_sublist {A} (p : A -> bool) l : sublist (filter p l) l.
Proof. induction l as [|x l IH]; simpl; [constructor|]. destruct (p x); constructor; exact IH. Qed.

Lemma sublist_nil {A} (l : list A) : sublist [] l.
Proof. induction l; constructor; assumption. Qed.
