(* Discrete time measure: number of unit cells [t, t+1), lo <= t < hi, on which P holds.
   Timestamps are integers, so "the time during which P holds" is exactly this count. *)
From HTA.lib Require Import Base.
Open Scope Z_scope.

Fixpoint cells_n (P : Z -> bool) (lo : Z) (n : nat) : Z :=
  match n with
  | O => 0
  | S n' => b2z (P lo) + cells_n P (lo + 1) n'
  end.

Definition cells (P : Z -> bool) (lo hi : Z) : Z := cells_n P lo (Z.to_nat (hi - lo)).

Lemma cells_n_ext P Q lo n :
  (forall t, lo <= t < lo + Z.of_nat n -> P t = Q t) -> cells_n P lo n = cells_n Q lo n.
Proof.
  revert lo. induction n as [|n IH]; intros lo H; simpl; [reflexivity|].
  rewrite (H lo) by lia. f_equal. apply IH. intros t Ht. apply H. lia.
Qed.

Lemma cells_n_app P lo n m :
  cells_n P lo (n + m) = cells_n P lo n + cells_n P (lo + Z.of_nat n) m.
Proof.
  revert lo. induction n as [|n IH]; intro lo; simpl plus; cbn [cells_n].
  - replace (lo + Z.of_nat 0) with lo by lia. lia.
  - rewrite IH. replace (lo + 1 + Z.of_nat n) with (lo + Z.of_nat (S n)) by lia. lia.
Qed.

Lemma cells_n_const (c : bool) P lo n :
  (forall t, lo <= t < lo + Z.of_nat n -> P t = c) -> cells_n P lo n = if c then Z.of_nat n else 0.
Proof.
  revert lo. induction n as [|n IH]; intros lo H; cbn [cells_n]; [destruct c; reflexivity|].
  rewrite (H lo), IH by (try (intros t Ht; apply H); lia). destruct c; cbn [b2z]; lia.
Qed.

Lemma cells_n_mono P Q lo n :
  (forall t, lo <= t < lo + Z.of_nat n -> P t = true -> Q t = true) -> cells_n P lo n <= cells_n Q lo n.
Proof.
  revert lo. induction n as [|n IH]; intros lo H; cbn [cells_n]; [lia|].
  specialize (IH (lo + 1) ltac:(intros t Ht; apply H; lia)). specialize (H lo ltac:(lia)).
  unfold b2z. destruct (P lo); [rewrite (H eq_refl) | destruct (Q lo)]; lia.
Qed.

(* finite additivity: Q is the disjoint union of the P a, a in L *)
Lemma cells_n_sum {A} (P : A -> Z -> bool) (Q : Z -> bool) (L : list A) lo n :
  (forall t, lo <= t < lo + Z.of_nat n -> b2z (Q t) = sumZ (map (fun a => b2z (P a t)) L)) ->
  cells_n Q lo n = sumZ (map (fun a => cells_n (P a) lo n) L).
Proof.
  revert lo. induction n as [|n IH]; intros lo H; cbn [cells_n].
  - symmetry. apply sumZ_zero. reflexivity.
  - rewrite sumZ_map_add, <- IH, <- H by (try (intros t Ht; apply H); lia). reflexivity.
Qed.

Lemma cells_ext P Q lo hi :
  (forall t, lo <= t < hi -> P t = Q t) -> cells P lo hi = cells Q lo hi.
Proof. intro H. unfold cells. apply cells_n_ext. intros t Ht. apply H. lia. Qed.

Lemma cells_split P lo mid hi :
  lo <= mid <= hi -> cells P lo hi = cells P lo mid + cells P mid hi.
Proof.
  intro H. unfold cells.
  replace (Z.to_nat (hi - lo)) with (Z.to_nat (mid - lo) + Z.to_nat (hi - mid))%nat by lia.
  rewrite cells_n_app. f_equal. f_equal. lia.
Qed.

Lemma cells_empty P lo hi : hi <= lo -> cells P lo hi = 0.
Proof. intro H. unfold cells. replace (Z.to_nat (hi - lo)) with O by lia. reflexivity. Qed.

Lemma cells_const (c : bool) P lo hi :
  (forall t, lo <= t < hi -> P t = c) -> cells P lo hi = if c then Z.max 0 (hi - lo) else 0.
Proof.
  intro H. unfold cells. rewrite (cells_n_const c) by (intros t Ht; apply H; lia). destruct c; lia.
Qed.

Lemma cells_true P lo hi :
  lo <= hi -> (forall t, lo <= t < hi -> P t = true) -> cells P lo hi = hi - lo.
Proof. intros Hle H. rewrite (cells_const true) by exact H. lia. Qed.

Lemma cells_false P lo hi : (forall t, lo <= t < hi -> P t = false) -> cells P lo hi = 0.
Proof. apply (cells_const false). Qed.

Lemma cells_mono P Q lo hi :
  (forall t, lo <= t < hi -> P t = true -> Q t = true) -> cells P lo hi <= cells Q lo hi.
Proof. intro H. unfold cells. apply cells_n_mono. intros t Ht. apply H. lia. Qed.

Lemma cells_bounds P lo hi : 0 <= cells P lo hi <= Z.max 0 (hi - lo).
Proof.
  pose proof (cells_mono (fun _ => false) P lo hi) as H0. rewrite (cells_const false (fun _ => false)) in H0 by reflexivity.
  pose proof (cells_mono P (fun _ => true) lo hi) as H1. rewrite (cells_const true (fun _ => true)) in H1 by reflexivity.
  split; [apply H0; discriminate | apply H1; reflexivity].
Qed.

Lemma cells_sum {A} (P : A -> Z -> bool) (Q : Z -> bool) (L : list A) lo hi :
  (forall t, lo <= t < hi -> b2z (Q t) = sumZ (map (fun a => b2z (P a t)) L)) ->
  cells Q lo hi = sumZ (map (fun a => cells (P a) lo hi) L).
Proof. intro H. unfold cells. apply cells_n_sum. intros t Ht. apply H. lia. Qed.

Lemma indicator_count (x : Z) L : NoDup L -> sumZ (map (fun m => b2z (x =? m)) L) = b2z (existsb (Z.eqb x) L).
Proof.
  intro Hnd. destruct (existsb (Z.eqb x) L) eqn:E.
  - apply (sumZ_indicator Z.eqb x 1 L Z.eqb_eq Hnd), memZ_In, E.
  - apply sumZ_zero. intros m Hm. destruct (Z.eqb_spec x m) as [->|]; [|reflexivity].
    apply memZ_In in Hm. congruence.
Qed.

Lemma cells_partition (f : Z -> Z) (L : list Z) lo hi : NoDup L ->
  sumZ (map (fun m => cells (fun t => f t =? m) lo hi) L) = cells (fun t => existsb (Z.eqb (f t)) L) lo hi.
Proof.
  intro H. symmetry. apply (cells_sum (fun m t => f t =? m)). intros t _. symmetry. apply indicator_count, H.
Qed.

(* finite additivity over the two-element index set {true, false} *)
Lemma cells_add P Q R lo hi :
  (forall t, lo <= t < hi -> b2z (R t) = b2z (P t) + b2z (Q t)) ->
  cells R lo hi = cells P lo hi + cells Q lo hi.
Proof.
  intro H. rewrite (cells_sum (fun b : bool => if b then P else Q) R [true; false]).
  - cbn [map sumZ fold_right]. lia.
  - intros t Ht. rewrite (H t Ht). cbn [map sumZ fold_right]. lia.
Qed.

Lemma cells_compl P lo hi :
  lo <= hi -> cells (fun t => negb (P t)) lo hi = (hi - lo) - cells P lo hi.
Proof.
  intro Hle.
  assert (cells (fun _ => true) lo hi = cells P lo hi + cells (fun t => negb (P t)) lo hi).
  { apply cells_add. intros t _. destruct (P t); reflexivity. }
  rewrite cells_true in H by auto. lia.
Qed.

(* the half-open interval [s, e) *)
Definition inb (s e t : Z) : bool := (s <=? t) && (t <? e).

Lemma cells_interval s e lo hi :
  lo <= s -> s <= e -> e <= hi -> cells (inb s e) lo hi = e - s.
Proof.
  intros H1 H2 H3.
  rewrite (cells_split _ lo s hi) by lia. rewrite (cells_split _ s e hi) by lia.
  rewrite (cells_false _ lo s), (cells_true _ s e), (cells_false _ e hi); try lia;
    intros t Ht; unfold inb; lia.
Qed.
